(* The two pipeline-level events (C14), for ALL programs (every construct, any bodies, any store, any order oracles), every
   schedule incl. cancellation, any number of event managers that do not raise (suspending ones included); the statements for plain
   programs are special cases.
   The chart task's stack has one of nine shapes whatever the program is (mk); helper tasks never hold a frame that reports a
   pipeline-level event (helper_frame).  Hence:
   - every manager sees on_pipeline_start at most once and on_pipeline_complete at most once, always without a node id;
   - when PipelineChart.run returns a PipelineResult, every manager has seen on_pipeline_start once and on_pipeline_complete
     exactly once, and the on_pipeline_complete callbacks carried exactly that result (value or error);
   - on_pipeline_start comes before anything else.
   On the way: stacks respect the call discipline at every configuration (creach_stacks), and how a claim about the state of the
   chart task is carried through the transitions of Proofs/Micro.v (chart_is). *)
From MLPE Require Import Engine.Run Proofs.ExecLemmas Proofs.Evolve Proofs.StackInv Proofs.Micro Proofs.PlainLive Proofs.PlainCore Proofs.PlainInv Proofs.PlainExec Proofs.StackAll.
Require Import Lia.

Definition is_ps (m : nat) (o : obs) : bool := match o with OEmit m' EvPipelineStart _ _ _ => Nat.eqb m' m | _ => false end.
Definition is_pc (m : nat) (o : obs) : bool := match o with OEmit m' EvPipelineComplete _ _ _ => Nat.eqb m' m | _ => false end.
Definition is_pipe (o : obs) : bool := match o with OEmit _ EvPipelineStart _ _ _ | OEmit _ EvPipelineComplete _ _ _ => true | _ => false end.
Definition cnt (f : obs -> bool) (tr : list obs) : nat := length (filter f tr).

Lemma cnt_cons f o tr : cnt f (o :: tr) = (if f o then 1 else 0) + cnt f tr.
Proof. unfold cnt. cbn [filter]. destruct (f o); reflexivity. Qed.
Lemma cnt_app f a b : cnt f (a ++ b) = cnt f a + cnt f b.
Proof. unfold cnt. rewrite filter_app, app_length. reflexivity. Qed.
Lemma cnt_zero_notin f tr o : cnt f tr = 0 -> In o tr -> f o = false.
Proof.
  induction tr as [|x r IH]; [contradiction|]. rewrite cnt_cons. intros H [->|Hin].
  - destruct (f o); [discriminate H|reflexivity].
  - apply IH; [destruct (f x); [discriminate H|exact H]|exact Hin].
Qed.
Lemma cnt_pos_in f tr : 0 < cnt f tr -> exists o, In o tr /\ f o = true.
Proof.
  induction tr as [|x r IH]; [cbn; lia|]. rewrite cnt_cons. destruct (f x) eqn:E.
  - intros _. exists x. split; [left; reflexivity|exact E].
  - intros H. destruct (IH H) as [o [Ho Hf]]. exists o. split; [right; exact Ho|exact Hf].
Qed.
Lemma cnt_nopipe f new : (forall o, f o = true -> is_pipe o = true) -> forallb (fun o => negb (is_pipe o)) new = true -> cnt f new = 0.
Proof.
  intros Hf. induction new as [|x r IH]; [reflexivity|]. cbn [forallb]. intros H. apply andb_true_iff in H. destruct H as [Hx Hr].
  rewrite cnt_cons, (IH Hr). destruct (f x) eqn:E; [|reflexivity]. rewrite (Hf x E) in Hx. discriminate Hx.
Qed.
Lemma is_ps_pipe m o : is_ps m o = true -> is_pipe o = true.
Proof. destruct o; try discriminate. destruct ev; try discriminate; reflexivity. Qed.
Lemma is_pc_pipe m o : is_pc m o = true -> is_pipe o = true.
Proof. destruct o; try discriminate. destruct ev; try discriminate; reflexivity. Qed.

(* _emit's loop `for mgr in managers: await mgr.on_...` is at manager mgr, whose callback has (1) or has not (0) been entered *)
Definition b2n (b : bool) : nat := if b then 1 else 0.

(* read off the shape of a stack from its description d (`mk` below): case analysis until the description is a conjunction of
   facts *)
Ltac shape_of d H :=
  repeat (cbn [d] in H; try contradiction;
          match type of H with context [match ?x with _ => _ end] => destruct x end); cbn [d] in H; try contradiction.

(* The cases of a step of the chart task whose stack H describes by d: the shape of the stack, then the signals the top
   frame takes (Hh : handled fr sg = true; Hnr : sg is no result-error), then the branch the engine takes, with managers
   that do not raise if the context says so. *)
Ltac chart_step_cases d H Hnr Hh sg :=
  shape_of d H;
  repeat match goal with H0 : _ /\ _ |- _ => destruct H0 end; subst;
  destruct sg as [|v0| |e0|e0]; try discriminate Hh; try (exfalso; exact (Hnr e0 eq_refl));
  try match goal with r : bool |- context [FEmit _ _ _ _ _ ?r] => destruct r end;
  cbn [step_frame];
  try match goal with Hnf : forall m ev n k, p_mgr_fault _ m ev n k = false |- _ => rewrite ?Hnf end;
  unfold reduced; repeat break_match; spawn_norm.

(* the list of the entries of l in front of its tail tr *)
Ltac prefix_of l tr :=
  lazymatch l with
  | tr => constr:(@nil obs)
  | ?x :: ?r => let p := prefix_of r tr in constr:(x :: p)
  end.

Section Pipe.
  Variable P : prog.
  Notation M := (p_mgrs P).
  Hypothesis Hnf : forall m ev n k, p_mgr_fault P m ev n k = false.

  (* the (error, result) pair that on_pipeline_complete is called with, once PipelineChart.run has decided on it *)
  Definition payload := option (option exn * option value).

  Definition seen (is : nat -> obs -> bool) (j : nat) (tr : list obs) : Prop :=
    forall m, cnt (is m) tr = if m <? Nat.min j M then 1 else 0.
  Definition ps_shape (tr : list obs) : Prop :=
    forall m n e r, In (OEmit m EvPipelineStart n e r) tr -> n = None /\ e = None /\ r = None.
  Definition pc_shape (pay : payload) (tr : list obs) : Prop :=
    forall m n e r, In (OEmit m EvPipelineComplete n e r) tr -> n = None /\ pay = Some (e, r).
  Definition Ftr (js jc : nat) (pay : payload) (tr : list obs) : Prop :=
    seen is_ps js tr /\ seen is_pc jc tr /\ ps_shape tr /\ pc_shape pay tr.

  (* an exception that meets PipelineChart.run outside its try block can only be the caller's CancelledError *)
  Definition cq (sg : option signal) : Prop := forall e, sg = Some (SThrow e) -> e = XCancelled.
  Definition isval (sg : option signal) : Prop := exists v, sg = Some (SVal v).

  (* the stack of the task that runs PipelineChart.run (chart.py), by where it stands: before / in the on_pipeline_start
     loop, about to start or awaiting manager.run, having its outcome, in the on_pipeline_complete loop, about to return
     PipelineResult(value) or PipelineResult(error); with what the counters and the payload are there *)
  Definition mk (js jc : nat) (pay : payload) (k : list frame) (sg : option signal) : Prop :=
    match k with
    | [FChartStart] => js = 0 /\ jc = 0
    | [FEmit EvPipelineStart None None None mgr r; FChartAfterStart] => js = mgr + b2n r /\ jc = 0
    | [FChartAfterStart] => jc = 0 /\ (isval sg -> M <= js)
    | [FRunWait; FChartAfterRun] => M <= js /\ jc = 0
    | [FChartAfterRun] => M <= js /\ jc = 0
    | [FEmit EvPipelineComplete None err res mgr r; FChartAfterEmitOk v] =>
      M <= js /\ jc = mgr + b2n r /\ pay = Some (None, Some v) /\ err = None /\ res = Some v /\ cq sg
    | [FChartAfterEmitOk v] => M <= js /\ pay = Some (None, Some v) /\ cq sg /\ (isval sg -> M <= jc)
    | [FEmit EvPipelineComplete None err res mgr r; FChartAfterEmitErr e] =>
      M <= js /\ jc = mgr + b2n r /\ pay = Some (Some e, None) /\ err = Some e /\ res = None /\ cq sg
    | [FChartAfterEmitErr e] => M <= js /\ pay = Some (Some e, None) /\ cq sg /\ (isval sg -> M <= jc)
    | _ => False
    end.

  (* no frame of PipelineChart.run is resumed with a PipelineResult(error): that is what run returns to its caller *)
  Definition nores (sg : signal) : Prop := forall e, sg <> SResErr e.
  Definition main_ok (js jc : nat) (pay : payload) (ts : tstate frame) : Prop :=
    match ts with
    | TReady k sg => nores sg /\ mk js jc pay k (Some sg)
    | TWait _ k => mk js jc pay k None
    | TDone (SVal v) => M <= js /\ M <= jc /\ pay = Some (None, Some v)
    | TDone (SResErr e) => M <= js /\ M <= jc /\ pay = Some (Some e, None)
    | TDone _ => True
    end.

  Lemma seen_nopipe is js new tr :
    (forall m o, is m o = true -> is_pipe o = true) -> forallb (fun o => negb (is_pipe o)) new = true -> seen is js tr -> seen is js (new ++ tr).
  Proof. intros Hp Hn H m. rewrite cnt_app, (cnt_nopipe (is m) new (Hp m) Hn). exact (H m). Qed.

  Lemma Ftr_nopipe js jc pay new tr : forallb (fun o => negb (is_pipe o)) new = true -> Ftr js jc pay tr -> Ftr js jc pay (new ++ tr).
  Proof.
    intros Hn (A & B & C & D). split; [|split; [|split]].
    - apply seen_nopipe; [apply is_ps_pipe|exact Hn|exact A].
    - apply seen_nopipe; [apply is_pc_pipe|exact Hn|exact B].
    - intros m n e r Hin. apply in_app_or in Hin. destruct Hin as [Hin|Hin]; [|exact (C m n e r Hin)].
      rewrite forallb_forall in Hn. specialize (Hn _ Hin). discriminate Hn.
    - intros m n e r Hin. apply in_app_or in Hin. destruct Hin as [Hin|Hin]; [|exact (D m n e r Hin)].
      rewrite forallb_forall in Hn. specialize (Hn _ Hin). discriminate Hn.
  Qed.

  Lemma seen_raise is j j' tr : M <= j -> M <= j' -> seen is j tr -> seen is j' tr.
  Proof. intros A B H m. rewrite (H m). rewrite !Nat.min_r by assumption. reflexivity. Qed.

  Lemma pc_shape_none pay tr : seen is_pc 0 tr -> pc_shape pay tr.
  Proof.
    intros H m n e r Hin. exfalso. pose proof (H m) as Hm. cbn in Hm.
    pose proof (cnt_zero_notin _ _ _ Hm Hin) as F. cbn in F. rewrite Nat.eqb_refl in F. discriminate F.
  Qed.

  Lemma seen_emit is o mgr tr : (forall m, is m o = Nat.eqb mgr m) -> mgr < M -> seen is mgr tr -> seen is (S mgr) (o :: tr).
  Proof.
    intros Ho Hm H m. rewrite cnt_cons, (H m), Ho.
    destruct (Nat.eqb_spec mgr m) as [->|Hne]; destruct (Nat.ltb_spec m (Nat.min m M)); destruct (Nat.ltb_spec m (Nat.min (S m) M)); try lia;
      destruct (Nat.ltb_spec m (Nat.min mgr M)); destruct (Nat.ltb_spec m (Nat.min (S mgr) M)); lia.
  Qed.
  Lemma seen_other is o j tr : (forall m, is m o = false) -> seen is j tr -> seen is j (o :: tr).
  Proof. intros Ho H m. rewrite cnt_cons, Ho. exact (H m). Qed.

  Lemma Ftr_emit_ps mgr jc pay tr :
    mgr < M -> Ftr mgr jc pay tr -> Ftr (S mgr) jc pay (OEmit mgr EvPipelineStart None None None :: tr).
  Proof.
    intros Hm (A & B & C & D). split; [apply seen_emit; [reflexivity|assumption..]|]. split; [apply seen_other; [reflexivity|exact B]|]. split.
    - intros m n e r [Hin|Hin]; [inversion Hin; auto|exact (C m n e r Hin)].
    - intros m n e r [Hin|Hin]; [discriminate Hin|exact (D m n e r Hin)].
  Qed.
  Lemma Ftr_emit_pc js mgr e r tr :
    mgr < M -> Ftr js mgr (Some (e, r)) tr -> Ftr js (S mgr) (Some (e, r)) (OEmit mgr EvPipelineComplete None e r :: tr).
  Proof.
    intros Hm (A & B & C & D). split; [apply seen_other; [reflexivity|exact A]|]. split; [apply seen_emit; [reflexivity|assumption..]|]. split.
    - intros m n e' r' [Hin|Hin]; [discriminate Hin|exact (C m n e' r' Hin)].
    - intros m n e' r' [Hin|Hin]; [inversion Hin; auto|exact (D m n e' r' Hin)].
  Qed.

  Lemma is_exc_cancelled : is_Exception XCancelled = false.
  Proof. reflexivity. Qed.

  Lemma Ftr_pay js pay pay' tr : Ftr js 0 pay tr -> Ftr js 0 pay' tr.
  Proof. intros (A & B & C & _). exact (conj A (conj B (conj C (pc_shape_none _ _ B)))). Qed.

  (* the clauses of `mk` and `main_ok` that hold by the form of the signal, or by arithmetic *)
  #[local] Hint Extern 1 (nores _) => (intros ? Hc; discriminate Hc) : chart.
  #[local] Hint Extern 1 (cq _) => (intros ? Hc; first [discriminate Hc | inversion Hc; reflexivity]) : chart.
  #[local] Hint Extern 2 (_ <= _) =>
    first [lia | match goal with Hv : isval _ |- _ => destruct Hv as [? Hv]; discriminate Hv end
               | match goal with Hv : isval _ -> _ |- _ => apply Hv; eexists; reflexivity end] : chart.
  #[local] Hint Extern 2 (@eq nat _ _) => lia : chart.

  Lemma main_step js jc pay t fr rest sg st :
    main_ok js jc pay (TReady (fr :: rest) sg) -> Ftr js jc pay (st_trace st) -> handled fr sg = true ->
    exists js' jc' pay', Ftr js' jc' pay' (st_trace (fst (step_frame P t fr sg st))) /\
                         main_ok js' jc' pay' (nstate rest (snd (step_frame P t fr sg st))).
  Proof.
    intros [Hnr H] HF Hh. cbn [main_ok] in *. shape_of mk H.
    (* the signals the frame takes (a CancelledError only, where `mk` says so) *)
    all: repeat match goal with H0 : _ /\ _ |- _ => destruct H0 end; subst.
    all: destruct sg as [|v0| |e0|e0]; try discriminate Hh; try (exfalso; exact (Hnr e0 eq_refl)).
    all: try match goal with Hcq : cq (Some (SThrow _)) |- _ => pose proof (Hcq _ eq_refl); subst end.
    all: try match goal with r : bool |- context [FEmit _ _ _ _ _ ?r] => destruct r end; cbn [b2n] in HF; rewrite ?Nat.add_0_r in HF.
    (* the branch the engine takes *)
    all: cbn [step_frame]; rewrite ?Hnf, ?is_exc_cancelled; unfold reduced; repeat break_match; spawn_norm.
    all: cbn [fst snd nstate app main_ok mk emit_frames b2n]; autorewrite with core; cbn [st_trace spawn emit_obs bump with_store fst].
    all: repeat match goal with Hl : (_ <=? _) = _ |- _ => first [apply Nat.leb_le in Hl | apply Nat.leb_gt in Hl] end.
    (* the history, then the shape of the new stack with these counters and this payload *)
    all: eexists _, _, _; split;
      [ (* nothing is logged *)
        exact HF
        (* nothing is logged, and the payload is fixed: no on_pipeline_complete has been sent yet *)
        + exact (Ftr_pay _ _ _ _ HF)
        (* one entry that is not a pipeline-level event: the creation of manager.run's task, the end of manager.run *)
        + (apply (Ftr_nopipe _ _ _ [_]); [reflexivity|exact HF])
        (* the next manager is told *)
        + (apply Ftr_emit_ps; [eassumption|exact HF]) + (apply Ftr_emit_pc; [eassumption|exact HF])
      | solve [eauto 8 with chart] ].
  Qed.

  Definition expects (ts : tstate frame) : Prop :=
    match ts with
    | TReady (f :: _) sg => handled f sg = true
    | TWait _ (f :: _) => handled f SGo = true
    | _ => True
    end.

  Definition is_ps_any (o : obs) : bool := match o with OEmit _ EvPipelineStart _ _ _ => true | _ => false end.
  Definition early (o : obs) : bool := match o with OSpawn _ TNMain | OEmit _ EvPipelineStart _ _ _ => true | _ => false end.

  Lemma main_step_new js jc pay t fr rest sg st :
    main_ok js jc pay (TReady (fr :: rest) sg) -> handled fr sg = true ->
    expects (nstate rest (snd (step_frame P t fr sg st))) /\
    exists new, st_trace (fst (step_frame P t fr sg st)) = new ++ st_trace st /\
                (forallb early new = true \/ (M <= js /\ forallb (fun o => negb (is_ps_any o)) new = true)) /\
                (st_next (fst (step_frame P t fr sg st)) = st_next st \/ M <= js).
  Proof.
    intros [Hnr H] Hh. cbn [main_ok] in *. chart_step_cases mk H Hnr Hh sg;
      (split; [cbn [fst snd nstate app expects handled emit_frames]; first [exact I | reflexivity]|]); cbn [fst snd];
      autorewrite with core; cbn [st_trace st_next emit_obs bump with_store spawn fst];
      match goal with |- exists new, ?l = new ++ ?tr /\ _ => let p := prefix_of l tr in exists p; split; [reflexivity|] end;
      (split; [first [left; reflexivity | right; split; [first [assumption | match goal with Hv : isval _ -> _ |- _ => apply Hv; eexists; reflexivity end]|reflexivity]]
              |first [left; reflexivity | right; first [assumption | match goal with Hv : isval _ -> _ |- _ => apply Hv; eexists; reflexivity end]]]).
  Qed.
End Pipe.

Ltac shape H := shape_of mk H.

Lemma owner_not_main nm fr : nm <> TNMain -> owner nm fr = true -> main_frame fr = false.
Proof.
  intros Hn Ho. destruct nm; try contradiction; try discriminate Ho; cbn [owner] in Ho.
  - destruct fr; try discriminate Ho; reflexivity.
  - destruct fr; try discriminate Ho; try reflexivity. destruct ev; try discriminate Ho; destruct n; try discriminate Ho; reflexivity.
Qed.

Lemma upd_task_state t ts (l : list (task frame)) y :
  In y (upd_task t (fun x => with_ts x ts) l) -> t_id y = t -> NoDup (map (@t_id frame) l) -> t_state y = ts.
Proof.
  induction l as [|z r IH]; cbn [upd_task map]; [contradiction|]. intros Hin Hid Hnd. inversion Hnd as [|a b Hni Hr]; subst.
  destruct (Nat.eqb (t_id z) (t_id y)) eqn:E.
  - destruct Hin as [<-|Hin]; [reflexivity|]. exfalso. apply Hni. apply Nat.eqb_eq in E. rewrite E. apply in_map. exact Hin.
  - destruct Hin as [<-|Hin]; [rewrite Nat.eqb_refl in E; discriminate E|]. apply IH; [exact Hin|reflexivity|exact Hr].
Qed.

Definition helper_frame (f : frame) : bool :=
  match f with
  | FChartStart | FChartAfterStart | FChartAfterRun | FChartAfterEmitOk _ | FChartAfterEmitErr _ | FRunWait => false
  | FEmit EvPipelineStart _ _ _ _ _ | FEmit EvPipelineComplete _ _ _ _ _ => false
  | _ => true
  end.

Section HelperSteps.
  Variable P : prog.

  Lemma step_helper_frames t fr sg st : helper_frame fr = true -> forallb helper_frame (dir_frames (snd (step_frame P t fr sg st))) = true.
  Proof.
    intros Hf. destruct (step_pushes P t fr sg st) as [[s' ->]|Hp]; [reflexivity|].
    destruct Hp; try discriminate Hf; try (destruct ev; try discriminate Hf); reflexivity.
  Qed.

  Lemma helper_step_no_pipe t fr sg st :
    helper_frame fr = true -> exists new, st_trace (fst (step_frame P t fr sg st)) = new ++ st_trace st /\ forallb (fun o => negb (is_pipe o)) new = true.
  Proof.
    intros Hf. destruct (step_obs P t fr sg st) as [new [E Hn]]. exists new. split; [exact E|]. apply forallb_forall. intros o Ho.
    specialize (Hn o Ho). destruct o; try reflexivity. cbn [obs_origin] in Hn. subst fr. destruct ev; try reflexivity; discriminate Hf.
  Qed.

  Theorem creach_helper_frames st t k sg : creach P st (Some (t, k, sg)) -> t <> main_tid -> forallb helper_frame k = true.
  Proof.
    intros Hc. destruct (creach_tstate_inv P (fun _ i ts => i <> main_tid -> forallb helper_frame (estack ts) = true) (fun _ => True))
      with (st := st) (c := Some (t, k, sg)) as (_ & B & _); auto.
    - intros st0 t0 fr rest s _ _ B _. split; [|split; [|exact I]].
      + intros i f _ Hs _. apply spawns_spawn_frame in Hs. destruct f; try discriminate Hs; reflexivity.
      + intros Hne. specialize (B Hne). cbn [estack forallb] in B. apply andb_true_iff in B. destruct B as [Kf Kr].
        rewrite estack_nstate, forallb_app, (step_helper_frames t0 fr s st0 Kf), Kr. reflexivity.
    - cbn [cur_T] in B. rewrite estack_cstate in B. exact B.
  Qed.
End HelperSteps.

Section StacksAtConfigurations.
  Variable P : prog.

  Definition cur_chain (c : running) : Prop :=
    match c with Some (t, k, _) => k = [] \/ (chainb k = true /\ (t = main_tid -> main_stack k = true)) | None => True end.

  Theorem creach_stacks : forall st c, creach P st c -> stacks_ok st /\ cur_chain c.
  Proof.
    intros st c H. pose proof (creach_evolves P st c H) as Hev0.
    induction H as [|st t rest x k sg H IH Hq Hf Ht|st t rest H IH Hq|st t fr rest sg H IH|st t sg H IH|st c H IH|st g H IH|st H IH].
    - split; [|exact I]. unfold stacks_ok, tasks_ok, init_state. cbn. constructor; [|constructor]. unfold stack_TP, main_tid. cbn.
      split; [split; reflexivity|]. split; [|auto]. split; [discriminate|]. split; reflexivity.
    - destruct (IH (creach_evolves P _ _ H)) as [A _]. split; [apply ok_dequeue; exact A|].
      destruct (find_task_in _ _ _ Hf) as [Hin Hid]. unfold stacks_ok, tasks_ok in A. rewrite Forall_forall in A. destruct (A x Hin) as [_ Hx].
      rewrite Ht in Hx. destruct Hx as [[A1 [A2 A3]] _]. right. split; [exact A2|]. intros E. apply A3. rewrite Hid. exact E.
    - destruct (IH (creach_evolves P _ _ H)) as [A _]. split; [apply ok_dequeue; exact A|exact I].
    - pose proof (creach_evolves P _ _ H) as Hev. destruct (IH Hev) as [Hs Hc]. cbn [cur_chain] in Hc.
      destruct Hc as [Hc|[Hch Hmain]]; [discriminate Hc|].
      pose proof (ev_next _ _ Hev) as Hn. cbn in Hn.
      pose proof (step_frame_dir_ok P t fr sg st) as Hd.
      pose proof (step_frame_tasks_ok P stack_TP stack_TP_wake stack_TP_cancel_ready stack_TP_cancel_wait stack_TP_spawn t fr sg st Hn Hs) as Hs1.
      assert (Hseg : forall k', seg_ok fr k' -> (k' ++ rest) <> [] /\ chainb (k' ++ rest) = true /\ (t = main_tid -> main_stack (k' ++ rest) = true)).
      { intros k' [Hne' [Hk [Hl Hmk]]]. split; [destruct k'; [contradiction|discriminate]|]. split.
        - apply (chainb_app fr); assumption.
        - intros Ht. specialize (Hmain Ht). unfold main_stack in *. rewrite forallb_app. cbn [forallb] in Hmain.
          apply andb_true_iff in Hmain. destruct Hmain as [Hf Hr]. rewrite (Hmk Hf), Hr. reflexivity. }
      destruct (step_frame P t fr sg st) as [st1 [w k'|k'|k' sg''|sg'']]; cbn [after_step fst snd dir_ok cur_chain] in *.
      + destruct (Hseg k' Hd) as [A [B C]]. split; [|exact I]. apply ok_suspend; [exact Hs1|].
        intros x Hx [Hx1 _]. split; [exact Hx1|]. cbn. destruct (find_task_in _ _ _ Hx) as [_ Hid]. rewrite Hid. auto.
      + destruct (Hseg k' Hd) as [A [B C]]. split; [|exact I]. apply ok_push_ready. apply ok_set_tstate; [exact Hs1|].
        intros x Hx [Hx1 _]. split; [exact Hx1|]. cbn. destruct (find_task_in _ _ _ Hx) as [_ Hid]. rewrite Hid. auto.
      + destruct (Hseg k' Hd) as [A [B C]]. split; [exact Hs1|]. right. auto.
      + split; [exact Hs1|]. destruct rest as [|g r]; [left; reflexivity|right]. split; [apply (chainb_tail fr); exact Hch|].
        intros Ht. specialize (Hmain Ht). unfold main_stack in *. cbn [forallb] in Hmain. apply andb_true_iff in Hmain. apply Hmain.
    - destruct (IH (creach_evolves P _ _ H)) as [A _]. split; [|exact I]. apply ok_set_tstate; [exact A|]. intros x _ [Hx _]. split; [exact Hx|exact I].
    - destruct (IH (creach_evolves P _ _ H)) as [A _]. split; [|exact I]. apply ok_abort; [|exact A]. intros x r [Hx _]. split; [exact Hx|exact I].
    - destruct (IH (creach_evolves P _ _ H)) as [A _]. split; [|exact I]. apply (complete_gate_tasks_ok stack_TP stack_TP_wake). exact A.
    - destruct (IH (creach_evolves P _ _ H)) as [A _]. split; [|exact I]. apply (ok_cancel_task stack_TP stack_TP_cancel_ready stack_TP_cancel_wait). exact A.
  Qed.
End StacksAtConfigurations.

(* A claim MG about the state of the chart task is held by its entry in the task table or -- while it runs -- by the
   configuration; how it is carried through each transition of Proofs/Micro.v. *)
Section ChartEntry.
  Variable P : prog.
  Variable MG : tstate frame -> Prop.
  Definition on_main (x : task frame) : Prop := t_id x = main_tid -> MG (t_state x).
  Definition chart_is (st : mstate) (c : running) : Prop :=
    match c with
    | Some (t, k, sg) => if Nat.eqb t main_tid then MG (cstate k sg) else tasks_ok on_main st
    | None => tasks_ok on_main st
    end.

  Lemma chart_other st t k sg : t <> main_tid -> chart_is st (Some (t, k, sg)) -> tasks_ok on_main st.
  Proof. intros Hne H. cbn [chart_is] in H. apply Nat.eqb_neq in Hne. rewrite Hne in H. exact H. Qed.

  Lemma on_main_set ts st : evolves init_state st -> MG ts -> tasks_ok on_main (set_tstate main_tid ts st).
  Proof.
    intros He Hm. destruct (evolved_shape st He) as [xa [ra [_ [_ [_ [_ [Hnd _]]]]]]]. unfold tasks_ok. rewrite Forall_forall. intros y Hy Hid.
    unfold set_tstate in Hy. cbn [st_tasks] in Hy. rewrite (upd_task_state main_tid ts (st_tasks st) y Hy Hid Hnd). exact Hm.
  Qed.
  Lemma on_main_other t ts st : t <> main_tid -> tasks_ok on_main st -> tasks_ok on_main (set_tstate t ts st).
  Proof.
    intros Hne H. apply ok_set_tstate; [exact H|]. intros y Hy _ Hid. cbn in Hid. destruct (find_task_in _ _ _ Hy) as [_ Hiy]. exfalso. apply Hne. rewrite <- Hiy. exact Hid.
  Qed.

  Lemma chart_dequeue st t x k sg :
    creach P st None -> find_task t (st_tasks st) = Some x -> t_state x = TReady k sg -> chart_is st None -> chart_is (dequeue st) (Some (t, k, sg)).
  Proof.
    intros Hc Hf Ht H. cbn [chart_is] in *. destruct (Nat.eqb_spec t main_tid) as [->|Hne]; [|exact H].
    destruct (find_task_in _ _ _ Hf) as [Hin Hid]. pose proof (tasks_ok_in _ _ _ H Hin Hid) as Hm. rewrite Ht in Hm.
    (* a task in the table has a frame to resume *)
    destruct (creach_stacks P _ _ Hc) as [Hs _]. destruct (tasks_ok_in _ _ _ Hs Hin) as [_ Hx]. rewrite Ht in Hx. destruct Hx as [[Hk _] _].
    destruct k; [contradiction|exact Hm].
  Qed.

  Lemma chart_step_main rest (r : mstate * directive) : evolves init_state (fst r) -> MG (nstate rest (snd r)) -> chart_is (fst (after_step main_tid rest r)) (snd (after_step main_tid rest r)).
  Proof.
    intros He Hm. destruct r as [st1 [w k'|k'|k' sg'|sg']]; cbn [after_step fst snd nstate chart_is Nat.eqb main_tid] in *; try exact Hm.
    - unfold suspend. apply (tasks_ok_same _ (set_tstate main_tid (TWait w (k' ++ rest)) st1)); [reflexivity|]. apply on_main_set; assumption.
    - apply ok_push_ready. apply on_main_set; assumption.
  Qed.

  Lemma chart_finish t sg st : evolves init_state st -> chart_is st (Some (t, [], sg)) -> chart_is (set_tstate t (TDone sg) st) None.
  Proof.
    intros He H. cbn [chart_is cstate] in *. destruct (Nat.eqb_spec t main_tid) as [->|Hne]; [apply on_main_set|apply on_main_other]; assumption.
  Qed.

  Lemma chart_abort st : (forall k, MG (TDone (SThrow (XEng EOutOfFuel k)))) -> chart_is (abort P st) None.
  Proof.
    intros Hm. unfold chart_is, tasks_ok, abort. cbn [st_tasks]. rewrite Forall_forall. intros y Hy. apply in_map_iff in Hy. destruct Hy as [x [<- _]]. intros _. apply Hm.
  Qed.

  Hypothesis MG_wake : forall w k, MG (TWait w k) -> MG (TReady k SGo).
  Hypothesis MG_cancel_ready : forall k sg, MG (TReady k sg) -> MG (TReady k (SThrow XCancelled)).
  Hypothesis MG_cancel_wait : forall w k, MG (TWait w k) -> MG (TReady k (SThrow XCancelled)).

  Lemma on_main_wake x w k : t_state x = TWait w k -> on_main x -> on_main (with_ts x (TReady k SGo)).
  Proof. unfold on_main. cbn. intros -> H Hi. exact (MG_wake _ _ (H Hi)). Qed.
  Lemma on_main_cancel_ready x k sg : t_state x = TReady k sg -> on_main x -> on_main (with_ts x (TReady k (SThrow XCancelled))).
  Proof. unfold on_main. cbn. intros -> H Hi. exact (MG_cancel_ready _ _ (H Hi)). Qed.
  Lemma on_main_cancel_wait x w k : t_state x = TWait w k -> on_main x -> on_main (with_ts x (TReady k (SThrow XCancelled))).
  Proof. unfold on_main. cbn. intros -> H Hi. exact (MG_cancel_wait _ _ (H Hi)). Qed.
  Lemma on_main_spawn i nm f : 1 <= i -> spawn_frame f = true -> on_main {| t_id := i; t_name := nm; t_state := TReady [f] SGo; t_helper := true |}.
  Proof. unfold on_main, main_tid. cbn. intros. lia. Qed.

  (* a helper task has made a step: it may have woken or cancelled the chart task *)
  Lemma chart_step_other t fr rest sg st :
    evolves init_state st -> t <> main_tid -> chart_is st (Some (t, fr :: rest, sg)) ->
    chart_is (fst (after_step t rest (step_frame P t fr sg st))) (snd (after_step t rest (step_frame P t fr sg st))).
  Proof.
    intros He Hne H. apply chart_other in H; [|exact Hne]. pose proof (ev_next _ _ He) as Hn1. cbn in Hn1.
    pose proof (step_frame_tasks_ok P on_main on_main_wake on_main_cancel_ready on_main_cancel_wait on_main_spawn t fr sg st Hn1 H) as H1.
    apply Nat.eqb_neq in Hne.
    destruct (step_frame P t fr sg st) as [st1 [w k'|k'|k' sg'|sg']]; cbn [after_step fst snd chart_is] in *; rewrite ?Hne; try exact H1.
    - unfold suspend. apply (tasks_ok_same _ (set_tstate t (TWait w (k' ++ rest)) st1)); [reflexivity|]. apply Nat.eqb_neq in Hne. apply on_main_other; assumption.
    - apply ok_push_ready. apply Nat.eqb_neq in Hne. apply on_main_other; assumption.
  Qed.

  Lemma chart_gate g st : chart_is st None -> chart_is (complete_gate g st) None.
  Proof. apply (complete_gate_tasks_ok on_main on_main_wake). Qed.
  Lemma chart_cancel st : chart_is st None -> chart_is (cancel_task main_tid st) None.
  Proof. apply (ok_cancel_task on_main on_main_cancel_ready on_main_cancel_wait). Qed.
End ChartEntry.

Section PipeInv.
  Variable P : prog.
  Hypothesis Hnf : forall m ev n k, p_mgr_fault P m ev n k = false.

  Definition chart_ok (js jc : nat) (pay : payload) (ts : tstate frame) : Prop := main_ok P js jc pay ts /\ expects ts.

  Definition pipeline_inv (st : mstate) (c : running) : Prop := exists js jc pay, Ftr P js jc pay (st_trace st) /\ chart_is (chart_ok js jc pay) st c.

  Lemma mk_weaken js jc pay k sg sg' :
    (forall v, sg' <> Some (SVal v)) -> (forall e, sg' = Some (SThrow e) -> e = XCancelled) -> mk P js jc pay k sg -> mk P js jc pay k sg'.
  Proof.
    intros Hv Hc H. destruct k as [|f [|g [|h r]]]; try contradiction; shape H; cbn [mk];
      repeat match goal with H0 : _ /\ _ |- _ => destruct H0 end; repeat (split; [assumption|]); try assumption;
      try (intros [v9 Hv9]; exfalso; exact (Hv v9 Hv9)); try exact Hc;
      try (split; [exact Hc|intros [v9 Hv9]; exfalso; exact (Hv v9 Hv9)]).
  Qed.

  Lemma chart_ok_wake js jc pay w k : chart_ok js jc pay (TWait w k) -> chart_ok js jc pay (TReady k SGo).
  Proof.
    intros [Hm Ht]. split; [|destruct k; exact Ht]. cbn [main_ok] in *.
    split; [intros e Hc; discriminate Hc|]. eapply mk_weaken; [| |exact Hm]; [intros v Hv; discriminate Hv|intros e He; discriminate He].
  Qed.
  Lemma chart_ok_cancel_ready js jc pay k sg : chart_ok js jc pay (TReady k sg) -> chart_ok js jc pay (TReady k (SThrow XCancelled)).
  Proof.
    intros [[_ Hm] _]. split; [|destruct k as [|f r]; [exact I|cbn; apply handled_throw]]. cbn [main_ok].
    split; [intros e Hc; discriminate Hc|]. eapply mk_weaken; [| |exact Hm]; [intros v Hv; discriminate Hv|intros e He; inversion He; reflexivity].
  Qed.
  Lemma chart_ok_cancel_wait js jc pay w k : chart_ok js jc pay (TWait w k) -> chart_ok js jc pay (TReady k (SThrow XCancelled)).
  Proof.
    intros [Hm _]. split; [|destruct k as [|f r]; [exact I|cbn; apply handled_throw]]. cbn [main_ok] in *.
    split; [intros e Hc; discriminate Hc|]. eapply mk_weaken; [| |exact Hm]; [intros v Hv; discriminate Hv|intros e He; inversion He; reflexivity].
  Qed.

  Theorem creach_pipeline_inv : forall st c, creach P st c -> pipeline_inv st c.
  Proof.
    intros st c H.
    induction H as [|st t rest x k sg H IH Hq Hf Ht|st t rest H IH Hq|st t fr rest sg H IH|st t sg H IH|st c H IH|st g H IH|st H IH];
      try (pose proof (creach_evolves P _ _ H) as Hev; destruct IH as [js [jc [pay [HF HT]]]]).
    - exists 0, 0, None. split.
      + split; [|split; [|split]]; try (intros m; reflexivity); intros m n e r [Hin|[]]; discriminate Hin.
      + constructor; [|constructor]. intros _. split; [split; [intros e Hc; discriminate Hc|split; reflexivity]|reflexivity].
    - exists js, jc, pay. split; [exact HF|]. apply (chart_dequeue P _ st t x); assumption.
    - exists js, jc, pay. split; assumption.
    -
      unfold pipeline_inv. rewrite trace_after_step. destruct (Nat.eqb_spec t main_tid) as [->|Hne].
      + destruct HT as [HM Hty]. cbn [cstate expects] in HM, Hty.
        destruct (main_step P Hnf js jc pay main_tid fr rest sg st HM HF Hty) as [js' [jc' [pay' [HF' HM']]]].
        destruct (main_step_new P Hnf js jc pay main_tid fr rest sg st HM Hty) as [Hty' _].
        exists js', jc', pay'. split; [exact HF'|]. apply chart_step_main; [|split; assumption].
        exact (evolves_trans _ _ _ Hev (ev_step_frame P main_tid fr sg st)).
      +
        pose proof (creach_helper_frames P _ _ _ _ H Hne) as Hk. cbn [forallb] in Hk. apply andb_true_iff in Hk. destruct Hk as [Kf _].
        destruct (helper_step_no_pipe P t fr sg st Kf) as [new [Etr Hnew]].
        exists js, jc, pay. split; [rewrite Etr; apply Ftr_nopipe; assumption|].
        apply (chart_step_other P _ (chart_ok_wake _ _ _) (chart_ok_cancel_ready _ _ _) (chart_ok_cancel_wait _ _ _)); assumption.
    - exists js, jc, pay. split; [exact HF|]. apply chart_finish; assumption.
    - exists js, jc, pay. split; [exact HF|]. apply chart_abort. intros k. split; exact I.
    - exists js, jc, pay. unfold complete_gate at 1. rewrite trace_wake_all.
      split; [exact HF|]. exact (chart_gate _ (chart_ok_wake _ _ _) g st HT).
    - exists js, jc, pay. rewrite trace_cancel_task.
      split; [exact HF|]. exact (chart_cancel _ (chart_ok_cancel_ready _ _ _) (chart_ok_cancel_wait _ _ _) st HT).
  Qed.
End PipeInv.

Lemma seen_le1 P is j tr m : seen P is j tr -> cnt (is m) tr <= 1.
Proof. intros H. rewrite (H m). destruct (m <? Nat.min j (p_mgrs P)); lia. Qed.
Lemma seen_all P is j tr m : seen P is j tr -> p_mgrs P <= j -> m < p_mgrs P -> cnt (is m) tr = 1.
Proof. intros H Hj Hm. rewrite (H m). rewrite Nat.min_r by exact Hj. destruct (Nat.ltb_spec m (p_mgrs P)); [reflexivity|lia]. Qed.

Theorem pipeline_events_all_programs P :
  (forall m ev n k, p_mgr_fault P m ev n k = false) ->
  forall st, reachable P st ->
    (forall m, cnt (is_ps m) (st_trace st) <= 1) /\ (forall m, cnt (is_pc m) (st_trace st) <= 1) /\
    (forall m n e r, In (OEmit m EvPipelineStart n e r) (st_trace st) -> n = None /\ e = None /\ r = None) /\
    (forall m n e r, In (OEmit m EvPipelineComplete n e r) (st_trace st) -> n = None) /\
    (forall v, main_state st = Some (TDone (SVal v)) ->
       (forall m, m < p_mgrs P -> cnt (is_ps m) (st_trace st) = 1 /\ cnt (is_pc m) (st_trace st) = 1) /\
       (forall m n e r, In (OEmit m EvPipelineComplete n e r) (st_trace st) -> e = None /\ r = Some v)) /\
    (forall x, main_state st = Some (TDone (SResErr x)) ->
       (forall m, m < p_mgrs P -> cnt (is_ps m) (st_trace st) = 1 /\ cnt (is_pc m) (st_trace st) = 1) /\
       (forall m n e r, In (OEmit m EvPipelineComplete n e r) (st_trace st) -> e = Some x /\ r = None)).
Proof.
  intros Hnf st Hr.
  destruct (creach_pipeline_inv P Hnf st None (reachable_creach P st Hr)) as [js [jc [pay [(S1 & S2 & S3 & S4) HT]]]].
  assert (Hmain : forall r, main_state st = Some (TDone r) -> main_ok P js jc pay (TDone r)).
  { intros r Hm. unfold main_state in Hm. destruct (find_task main_tid (st_tasks st)) as [x|] eqn:F; [|discriminate Hm]. cbn in Hm. inversion Hm as [Es].
    destruct (find_task_in _ _ _ F) as [Hin Hid]. exact (proj1 (tasks_ok_in _ _ _ HT Hin Hid)). }
  split; [intros m; exact (seen_le1 P _ _ _ m S1)|]. split; [intros m; exact (seen_le1 P _ _ _ m S2)|]. split; [exact S3|].
  split; [intros m n e r Hin; exact (proj1 (S4 m n e r Hin))|]. split.
  - intros v Hm. destruct (Hmain _ Hm) as (Hjs & Hjc & ->). split.
    + intros m Hlt. split; [exact (seen_all P _ _ _ m S1 Hjs Hlt)|exact (seen_all P _ _ _ m S2 Hjc Hlt)].
    + intros m n e r Hin. destruct (S4 m n e r Hin) as [_ E]. inversion E. auto.
  - intros x Hm. destruct (Hmain _ Hm) as (Hjs & Hjc & ->). split.
    + intros m Hlt. split; [exact (seen_all P _ _ _ m S1 Hjs Hlt)|exact (seen_all P _ _ _ m S2 Hjc Hlt)].
    + intros m n e r Hin. destruct (S4 m n e r Hin) as [_ E]. inversion E. auto.
Qed.

Theorem plain_pipeline_events P :
  plain_prog P -> (forall m ev n k, p_mgr_fault P m ev n k = false) ->
  forall st, reachable P st ->
    (* at most once per manager, and never with a node id or a payload / with another payload than the run's outcome *)
    (forall m, cnt (is_ps m) (st_trace st) <= 1) /\ (forall m, cnt (is_pc m) (st_trace st) <= 1) /\
    (forall m n e r, In (OEmit m EvPipelineStart n e r) (st_trace st) -> n = None /\ e = None /\ r = None) /\
    (forall m n e r, In (OEmit m EvPipelineComplete n e r) (st_trace st) -> n = None) /\
    (* run returned PipelineResult(value=v): every manager saw both events exactly once and on_pipeline_complete carried v *)
    (forall v, main_state st = Some (TDone (SVal v)) ->
       (forall m, m < p_mgrs P -> cnt (is_ps m) (st_trace st) = 1 /\ cnt (is_pc m) (st_trace st) = 1) /\
       (forall m n e r, In (OEmit m EvPipelineComplete n e r) (st_trace st) -> e = None /\ r = Some v)) /\
    (* run returned PipelineResult(error=x): likewise with the error *)
    (forall x, main_state st = Some (TDone (SResErr x)) ->
       (forall m, m < p_mgrs P -> cnt (is_ps m) (st_trace st) = 1 /\ cnt (is_pc m) (st_trace st) = 1) /\
       (forall m n e r, In (OEmit m EvPipelineComplete n e r) (st_trace st) -> e = Some x /\ r = None)).
Proof. intros _. exact (pipeline_events_all_programs P). Qed.

Lemma cnt_nops m l : forallb (fun o => negb (is_ps_any o)) l = true -> cnt (is_ps m) l = 0.
Proof.
  induction l as [|x r IH]; [reflexivity|]. cbn [forallb]. intros H. apply andb_true_iff in H. destruct H as [Hx Hr]. rewrite cnt_cons, (IH Hr).
  destruct x; try reflexivity. destruct ev; try reflexivity. discriminate Hx.
Qed.

Section OrderStart.
  Variable P : prog.
  Notation M := (p_mgrs P).
  Hypothesis Hnf : forall m ev n k, p_mgr_fault P m ev n k = false.

  Definition started (tr : list obs) : Prop := forall m, m < M -> cnt (is_ps m) tr = 1.
  (* the history is newest first: b is what came before o *)
  Definition first_ok (tr : list obs) : Prop := forall a o b, tr = a ++ o :: b -> early o = false -> started b.

  Lemma started_app new tr : started tr -> forallb (fun o => negb (is_ps_any o)) new = true -> started (new ++ tr).
  Proof. intros H Hn m Hm. rewrite cnt_app, (cnt_nops m new Hn). exact (H m Hm). Qed.

  Lemma first_ok_app new tr :
    first_ok tr -> (forallb early new = true \/ (started tr /\ forallb (fun o => negb (is_ps_any o)) new = true)) -> first_ok (new ++ tr).
  Proof.
    intros Hf. induction new as [|x r IH]; intros Hd; [exact Hf|].
    intros a o b E He. destruct a as [|y a'].
    - cbn [app] in E. inversion E; subst o b. destruct Hd as [Hd|[Hs Hd]].
      + cbn [forallb] in Hd. apply andb_true_iff in Hd. destruct Hd as [Hx _]. rewrite Hx in He. discriminate He.
      + cbn [forallb] in Hd. apply andb_true_iff in Hd. destruct Hd as [_ Hr]. apply started_app; assumption.
    - cbn [app] in E. inversion E as [[Ey E']]. apply (IH ltac:(destruct Hd as [Hd|[Hs Hd]]; cbn [forallb] in Hd; apply andb_true_iff in Hd; destruct Hd as [_ Hr]; [left; exact Hr|right; split; assumption]) a' o b E' He).
  Qed.

  Lemma seen_started js tr : seen P is_ps js tr -> M <= js -> started tr.
  Proof. intros H Hj m Hm. exact (seen_all P _ _ _ m H Hj Hm). Qed.

  (* once started, always started: no manager is told twice *)
  Lemma started_keep js new tr : started tr -> seen P is_ps js (new ++ tr) -> started (new ++ tr).
  Proof.
    intros Hs H m Hm. pose proof (seen_le1 P _ _ _ m H) as Hle. rewrite cnt_app in *. rewrite (Hs m Hm) in *. lia.
  Qed.

  Definition cur_id (st : mstate) (c : running) : Prop := match c with Some (t, _, _) => t < st_next st | None => True end.

  Lemma creach_cur_id : forall st c, creach P st c -> cur_id st c.
  Proof.
    intros st c H. induction H as [|st t rest x k sg H IH Hq Hf Ht|st t rest H IH Hq|st t fr rest sg H IH|st t sg H IH|st c H IH|st g H IH|st H IH]; try exact I.
    - destruct (find_task_in _ _ _ Hf) as [Hin Hid]. cbn. rewrite <- Hid. exact (evolves_ids st (creach_evolves P st None H) x Hin).
    - cbn in IH. pose proof (ev_next _ _ (ev_step_frame P t fr sg st)) as Hn.
      destruct (step_frame P t fr sg st) as [st1 [w k'|k'|k' sg'|sg']]; cbn [after_step fst snd cur_id] in *; try exact I; lia.
  Qed.

  (* st_next = 1: no task but the chart task has been created *)
  Definition start_first_inv (st : mstate) : Prop := (st_next st = 1 \/ started (st_trace st)) /\ first_ok (st_trace st).

  Theorem creach_start_first_inv : forall st c, creach P st c -> start_first_inv st.
  Proof.
    apply (creach_state_inv P start_first_inv).
    - split; [left; reflexivity|]. intros a o b E He. cbn in E. destruct a as [|y a']; [inversion E; subst; discriminate He|].
      inversion E. destruct a'; discriminate.
    - intros a b (_ & _ & Et & _ & En & _). unfold start_first_inv. rewrite Et, En. trivial.
    - intros st t fr rest sg H [G3 Hfo].
      destruct (creach_pipeline_inv P Hnf _ _ H) as [js [jc [pay [HF HT]]]].
      destruct (creach_pipeline_inv P Hnf _ _ (cr_step P st t fr rest sg H)) as [js1 [jc1 [pay1 [HF1 _]]]]. rewrite trace_after_step in HF1.
      pose proof (creach_cur_id _ _ H) as Hid. cbn in Hid. unfold start_first_inv.
      destruct (Nat.eqb_spec t main_tid) as [->|Hne].
      + destruct HT as [HM Hty]. cbn [cstate expects] in HM, Hty. destruct HF as (S1 & _). destruct HF1 as (S1' & _).
        destruct (main_step_new P Hnf js jc pay main_tid fr rest sg st HM Hty) as [_ [new [Etr [Hd Hnx]]]]. rewrite Etr in *.
        assert (Hd' : forallb early new = true \/ started (st_trace st) /\ forallb (fun o => negb (is_ps_any o)) new = true).
        { destruct Hd as [Hd|[Hj Hd]]; [left; exact Hd|right; split; [exact (seen_started js _ S1 Hj)|exact Hd]]. }
        split; [|apply first_ok_app; assumption].
        destruct Hnx as [En|Hj].
        * rewrite En. destruct G3 as [G3|G3]; [left; exact G3|right; exact (started_keep js1 new _ G3 S1')].
        * right. apply (started_keep js1 new _); [|exact S1']. exact (seen_started js _ S1 Hj).
      + pose proof (creach_helper_frames P _ _ _ _ H Hne) as Hk. cbn [forallb] in Hk. apply andb_true_iff in Hk. destruct Hk as [Kf _].
        destruct (helper_step_no_pipe P t fr sg st Kf) as [new [Etr Hnew]]. rewrite Etr.
        assert (Hst : started (st_trace st)).
        { destruct G3 as [G3|G3]; [|exact G3]. exfalso. unfold main_tid in Hne. lia. }
        assert (Hnops : forallb (fun o => negb (is_ps_any o)) new = true).
        { rewrite forallb_forall in *. intros o Ho'. specialize (Hnew o Ho'). destruct o; try reflexivity. destruct ev; try reflexivity. discriminate Hnew. }
        split; [right; apply started_app; assumption|apply first_ok_app; [exact Hfo|right; split; assumption]].
  Qed.
End OrderStart.

Theorem pipeline_start_comes_first_all_programs P :
  (forall m ev n k, p_mgr_fault P m ev n k = false) ->
  forall st, reachable P st ->
    forall a o b, st_trace st = a ++ o :: b -> early o = false -> forall m, m < p_mgrs P -> cnt (is_ps m) b = 1.
Proof.
  intros Hnf st Hr. destruct (creach_start_first_inv P Hnf st None (reachable_creach P st Hr)) as [_ Hfo]. exact Hfo.
Qed.

Theorem plain_pipeline_start_comes_first P :
  plain_prog P -> (forall m ev n k, p_mgr_fault P m ev n k = false) ->
  forall st, reachable P st ->
    forall a o b, st_trace st = a ++ o :: b -> early o = false -> forall m, m < p_mgrs P -> cnt (is_ps m) b = 1.
Proof. intros _. exact (pipeline_start_comes_first_all_programs P). Qed.
