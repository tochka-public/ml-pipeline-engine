(* Plain programs, every schedule: where exceptions come from. Every exception that is in flight anywhere -- thrown into a frame,
   held by a frame while a callback is emitted, the result of a finished task -- was raised by a node body of this program at the
   attempt it names, by an event manager or by the artifact store (or is the pool-not-ready error, or a CancelledError). Never an
   internal lookup error, never the interpreter's out-of-fuel artefact. What PipelineChart.run reports as PipelineResult.error is
   such an exception and is an Exception; what it raises is such an exception or the caller's CancelledError. *)
From MLPE Require Import Engine.Run Proofs.ExecLemmas Proofs.Evolve Proofs.PlainWorld Proofs.PlainStep Proofs.PlainLive Proofs.Micro Proofs.PlainBase Proofs.PlainRoles Proofs.PlainExec.

Definition frame_exns (f : frame) : list exn :=
  match f with
  | FExecAfterErr _ e | FChartAfterEmitErr e | FEmit _ _ (Some e) _ _ _ => [e]
  | _ => []
  end.
Definition sig_exns (sg : signal) : list exn := match sg with SThrow e | SResErr e => [e] | _ => [] end.

Lemma decide_raise nd oc att c :
  retry_decide nd oc att = RDFinal c \/ retry_decide nd oc att = RDPropagate c \/ retry_decide nd oc att = RDRetry c -> oc = ORaise c.
Proof.
  unfold retry_decide. destruct oc as [v|c0]; [intros [H|[H|H]]; discriminate H|].
  repeat break_match; intros [H|[H|H]]; try discriminate H; inversion H; reflexivity.
Qed.

Section Errors.
  Variable P : prog.
  Notation G := (b_graph (build (p_decls P) (p_inp P) (p_out P))).
  Hypothesis Hsw : forall n, is_switch G n = false.
  Hypothesis Hhd : forall n, is_head G n = false.
  Hypothesis Hbody : forall i kw a v, p_body P i kw a = OVal v -> clean v = true.

  Definition raised (e : exn) : Prop :=
    match e with
    | XNode c i a => exists kw, p_body P i kw a = ORaise c
    | XMgr _ | XStore _ => True
    | XEng EArtifactExists _ | XEng EPoolNotReady _ => True
    | _ => False
    end.
  Definition legit (e : exn) : Prop := e = XCancelled \/ raised e.

  Definition frame_ok (f : frame) : Prop :=
    (forall e, In e (frame_exns f) -> legit e) /\ (forall e, f = FChartAfterEmitErr e -> is_Exception e = true).
  Definition sig_ok (sg : signal) : Prop :=
    (forall e, In e (sig_exns sg) -> legit e) /\ (forall e, sg = SResErr e -> is_Exception e = true).
  Definition stack_ok (k : list frame) : Prop := forall f, In f k -> frame_ok f.
  Definition legit_TP (x : task frame) : Prop :=
    match t_state x with
    | TReady k sg => stack_ok k /\ sig_ok sg
    | TWait _ k => stack_ok k
    | TDone sg => sig_ok sg
    end.
  Definition legit_cur (c : running) : Prop := match c with Some (_, k, sg) => stack_ok k /\ sig_ok sg | None => True end.
  Definition dir_legit (d : directive) : Prop :=
    stack_ok (dir_frames d) /\ (forall s, dir_sig d = Some s -> sig_ok s).

  Lemma node_kwargs_some st n : node_kwargs P st n <> None.
  Proof.
    unfold node_kwargs. destruct (key_eqb n _).
    - destruct (alookup key_eqb n (st_adddata st)) as [v|]; [destruct v|]; discriminate.
    - match goal with |- context [fold_left ?f ?l ?a] => assert (K : forall l0 acc, acc <> None -> fold_left f l0 acc <> None) end.
      { induction l0 as [|pe r IH]; intros acc Ha; cbn [fold_left]; [exact Ha|]. apply IH. destruct acc as [kw|]; [|contradiction].
        destruct (ea_kwarg (snd pe)); [|discriminate]. rewrite Hsw. discriminate. }
      match goal with |- context [fold_left ?f ?l ?a] => pose proof (K l a) as K0; destruct (fold_left f l a) as [kw|] end;
        [destruct (alookup key_eqb n (st_adddata st)) as [v|]; [destruct v|]; discriminate|exfalso; apply K0; [discriminate|reflexivity]].
  Qed.

  Lemma task_errors_legit st e : tasks_ok legit_TP st -> In e (task_errors st) -> legit e.
  Proof.
    unfold tasks_ok, task_errors. rewrite Forall_forall. intros H Hin. apply in_flat_map in Hin. destruct Hin as [x [Hx Hin]].
    specialize (H x Hx). unfold legit_TP in H. destruct (t_helper x); [|contradiction]. destruct (t_state x) as [| |r]; try contradiction.
    destruct r as [| | |e0|]; try contradiction. destruct H as [H _]. apply H. cbn. destruct e0; cbn in Hin; try contradiction; destruct Hin as [<-|[]]; left; reflexivity.
  Qed.

  Ltac legit_solve :=
    repeat match goal with
           | |- _ /\ _ => split
           | |- forall _, _ => intro
           | H : In _ [] |- _ => destruct H
           | H : In _ (_ :: _) |- _ => destruct H as [H|H]; [subst|]
           | H : Some _ = Some _ |- _ => inversion H; subst; clear H
           | H : FChartAfterEmitErr _ = FChartAfterEmitErr _ |- _ => inversion H; subst; clear H
           | H : SResErr _ = SResErr _ |- _ => inversion H; subst; clear H
           | H : In _ (frame_exns _) |- _ => cbn [frame_exns emit_frames] in H
           | H : In _ (sig_exns _) |- _ => cbn [sig_exns] in H
           end.

  Lemma plain_step_legit t fr sg st :
    plain_frame P fr = true -> clean_sig sg -> PS st -> handled fr sg = true ->
    frame_ok fr -> sig_ok sg -> tasks_ok legit_TP st ->
    dir_legit (snd (step_frame P t fr sg st)).
  Proof.
    intros Hf Hs Hst Hh [Fo1 Fo2] [So1 So2] Hto. rewrite (step_dir P t fr sg st Hf Hs Hst).
    pose proof (task_errors_legit st) as Hte.
    plain_cases fr sg Hf Hs; unfold dir_legit, stack_ok, frame_ok, sig_ok; cbn [snd dir_frames dir_sig];
      legit_solve; try discriminate; try contradiction; try assumption.
    (* One goal is left per exception the step puts in flight. It was held by the frame or thrown into it; *)
    all: try (apply Fo1; cbn [frame_exns In]; auto; fail).
    all: try (apply So1; cbn [sig_exns In]; auto; fail).
    all: try (apply Fo2; reflexivity).
    (* or is the result of a finished helper task; *)
    all: try (apply Hte; [exact Hto|first [left; reflexivity|apply pick_error_in]]).
    (* or a manager, the store or the pool check raises it now; *)
    all: try (right; cbn [raised]; exact I).
    (* or a node body does: the retry policy passes on only what the body raised. *)
    all: try (right; cbn [raised]; eexists; eapply decide_raise; eauto; fail).
    (* An internal lookup error would need `node_kwargs` to fail. *)
    all: match goal with Hn : node_kwargs P _ _ = None |- _ => exfalso; exact (node_kwargs_some _ _ Hn) end.
  Qed.

  Lemma sig_ok_go : sig_ok SGo. Proof. split; [intros e []|intros e H; discriminate H]. Qed.
  Lemma sig_ok_cancel : sig_ok (SThrow XCancelled).
  Proof. split; [intros e [<-|[]]; left; reflexivity|intros e H; discriminate H]. Qed.

  Lemma legit_wake x w k : t_state x = TWait w k -> legit_TP x -> legit_TP (with_ts x (TReady k SGo)).
  Proof. unfold legit_TP. intros E H. rewrite E in H. cbn. split; [exact H|apply sig_ok_go]. Qed.
  Lemma legit_cancel_ready x k sg : t_state x = TReady k sg -> legit_TP x -> legit_TP (with_ts x (TReady k (SThrow XCancelled))).
  Proof. unfold legit_TP. intros E H. rewrite E in H. cbn. split; [apply H|apply sig_ok_cancel]. Qed.
  Lemma legit_cancel_wait x w k : t_state x = TWait w k -> legit_TP x -> legit_TP (with_ts x (TReady k (SThrow XCancelled))).
  Proof. unfold legit_TP. intros E H. rewrite E in H. cbn. split; [exact H|apply sig_ok_cancel]. Qed.

  Lemma stack_ok_app a b : stack_ok a -> stack_ok b -> stack_ok (a ++ b).
  Proof. intros Ha Hb f Hf. apply in_app_or in Hf. destruct Hf; auto. Qed.
  Lemma stack_ok_single f : (forall e, In e (frame_exns f) -> legit e) -> (forall e, f = FChartAfterEmitErr e -> is_Exception e = true) -> stack_ok [f].
  Proof. intros A B g [<-|[]]. split; assumption. Qed.

  (* the interpreter gave up (cr_abort): every task carries the model-only out-of-fuel artefact, and nothing moves any more *)
  Definition ab_TP (x : task frame) : Prop :=
    t_state x = TDone (SThrow (XEng EOutOfFuel (b_input (build (p_decls P) (p_inp P) (p_out P))))).
  Definition legitI (st : mstate) (c : running) : Prop := tasks_ok ab_TP st \/ (tasks_ok legit_TP st /\ legit_cur c).

  Lemma ab_running st t k sg : base P st (Some (t, k, sg)) -> tasks_ok ab_TP st -> False.
  Proof.
    intros Hb Ha. destruct (b_cur _ _ _ Hb) as [x0 [Hf0 [_ [_ [_ [_ [_ [k0 [sg0 Hrdy]]]]]]]]].
    destruct (find_task_in _ _ _ Hf0) as [Hin _]. unfold tasks_ok in Ha. rewrite Forall_forall in Ha. specialize (Ha x0 Hin). unfold ab_TP in Ha. congruence.
  Qed.

  Theorem creach_legit : forall st c, creach P st c -> legitI st c.
  Proof.
    intros st c H. pose proof (creach_base P Hsw Hhd Hbody st c H) as Hb0.
    induction H as [|st t rest x k sg H IH Hq Hf Ht|st t rest H IH Hq|st t fr rest sg H IH|st t sg H IH|st c H IH|st g H IH|st H IH].
    - right. split; [|exact I]. unfold tasks_ok, init_state. cbn. constructor; [|constructor]. unfold legit_TP. cbn.
      split; [|apply sig_ok_go]. intros f [<-|[]]. split; [intros e []|intros e Hx; discriminate Hx].
    - destruct (IH (creach_base P Hsw Hhd Hbody _ _ H)) as [Ha|[A _]].
      + exfalso. destruct (find_task_in _ _ _ Hf) as [Hin _]. unfold tasks_ok in Ha. rewrite Forall_forall in Ha. specialize (Ha x Hin). unfold ab_TP in Ha. congruence.
      + right. split; [apply ok_dequeue; exact A|].
        destruct (find_task_in _ _ _ Hf) as [Hin _]. unfold tasks_ok in A. rewrite Forall_forall in A. specialize (A x Hin). unfold legit_TP in A. rewrite Ht in A. exact A.
    - destruct (IH (creach_base P Hsw Hhd Hbody _ _ H)) as [Ha|[A _]]; [left; apply ok_dequeue; exact Ha|right]. split; [apply ok_dequeue; exact A|exact I].
    - pose proof (creach_base P Hsw Hhd Hbody _ _ H) as Hb. destruct (IH Hb) as [Ha|[A [Bk Bs]]]; [exfalso; exact (ab_running _ _ _ _ Hb Ha)|right].
      destruct (creach_typed P Hsw Hhd Hbody _ _ H) as [_ Hty]. cbn [typed_cur typed_stack] in Hty.
      destruct (b_cur _ _ _ Hb) as [x0 [Hf0 [Hk [Hs _]]]]. cbn [plain_stack forallb] in Hk. apply andb_true_iff in Hk. destruct Hk as [Kf Kr].
      assert (Bf : frame_ok fr) by (apply Bk; left; reflexivity).
      assert (Br : stack_ok rest) by (intros f Hf; apply Bk; right; exact Hf).
      destruct (plain_step_legit t fr sg st Kf Hs (b_ps _ _ _ Hb) Hty Bf Bs A) as [Dk Ds].
      assert (A1 : tasks_ok legit_TP (fst (step_frame P t fr sg st))).
      { apply (plain_step_tasks_gen P Hsw Hhd legit_TP legit_wake legit_cancel_ready legit_cancel_wait); try assumption; [| |exact (b_ps _ _ _ Hb)];
          intros; unfold legit_TP; cbn; (split; [|apply sig_ok_go]); intros f [<-|[]]; (split; [intros e []|intros e Hx; discriminate Hx]). }
      destruct (step_frame P t fr sg st) as [st1 [w k'|k'|k' sg'|sg']]; cbn [after_step fst snd legit_cur dir_frames dir_sig] in *.
      + split; [|exact I]. apply ok_suspend; [exact A1|]. intros y _ _. unfold legit_TP. cbn. apply stack_ok_app; assumption.
      + split; [|exact I]. apply ok_push_ready. apply ok_set_tstate; [exact A1|]. intros y _ _. unfold legit_TP. cbn. split; [apply stack_ok_app; assumption|apply sig_ok_go].
      + split; [exact A1|]. split; [apply stack_ok_app; assumption|apply Ds; reflexivity].
      + split; [exact A1|]. split; [exact Br|apply Ds; reflexivity].
    - pose proof (creach_base P Hsw Hhd Hbody _ _ H) as Hb. destruct (IH Hb) as [Ha|[A [_ Bs]]]; [exfalso; exact (ab_running _ _ _ _ Hb Ha)|right].
      split; [|exact I]. apply ok_set_tstate; [exact A|]. intros y _ _. exact Bs.
    - left. unfold tasks_ok, abort. cbn [st_tasks]. rewrite Forall_forall. intros y Hy. apply in_map_iff in Hy. destruct Hy as [x [<- _]]. reflexivity.
    - destruct (IH (creach_base P Hsw Hhd Hbody _ _ H)) as [Ha|[A _]]; [left|right].
      + apply (complete_gate_tasks_ok ab_TP); [|exact Ha]. intros x w k Hx Hp. unfold ab_TP in Hp. congruence.
      + split; [|exact I]. apply (complete_gate_tasks_ok legit_TP legit_wake). exact A.
    - destruct (IH (creach_base P Hsw Hhd Hbody _ _ H)) as [Ha|[A _]]; [left|right].
      + apply (ok_cancel_task ab_TP); [| |exact Ha]; intros x; intros; unfold ab_TP in *; congruence.
      + split; [|exact I]. apply (ok_cancel_task legit_TP legit_cancel_ready legit_cancel_wait). exact A.
  Qed.
End Errors.

Theorem plain_errors_are_genuine P :
  plain_prog P -> forall st, reachable P st ->
    (* what run reports as PipelineResult.error was raised by a node body of this program (at the attempt it names), by an event
       manager or by the artifact store, or is the pool-not-ready error; and it is an Exception *)
    (forall e, main_state st = Some (TDone (SResErr e)) -> raised P e /\ is_Exception e = true) /\
    (* what run raises is such an exception, or the caller's CancelledError (or the model-only out-of-fuel artefact of the interpreter,
       which the certificates exclude on the catalogue and the driver reports on every compared run) *)
    (forall e, main_state st = Some (TDone (SThrow e)) ->
               e = XCancelled \/ raised P e \/ e = XEng EOutOfFuel (b_input (build (p_decls P) (p_inp P) (p_out P)))).
Proof.
  intros (Hg & Hb & _) st Hr. destruct (graph_plain_sound _ Hg) as [Hsw Hhd].
  pose proof (reachable_creach P st Hr) as Hc.
  destruct (reachable_find_main P st Hr) as [x [Hf [_ Hid]]]. destruct (find_task_in _ _ _ Hf) as [Hin _].
  unfold main_state. rewrite Hf. cbn.
  destruct (creach_legit P Hsw Hhd Hb st None Hc) as [Ha|[A _]].
  - unfold tasks_ok in Ha. rewrite Forall_forall in Ha. specialize (Ha x Hin). unfold ab_TP in Ha. rewrite Ha.
    split; intros e He; inversion He; auto.
  - unfold tasks_ok in A. rewrite Forall_forall in A. specialize (A x Hin). unfold legit_TP in A.
    split; intros e He; inversion He as [Es]; rewrite Es in A; destruct A as [A1 A2].
    + pose proof (A2 e eq_refl) as Hex. destruct (A1 e (or_introl eq_refl)) as [->|Hr']; [discriminate Hex|auto].
    + destruct (A1 e (or_introl eq_refl)) as [->|Hr']; auto.
Qed.
