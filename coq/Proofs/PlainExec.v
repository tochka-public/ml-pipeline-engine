(* Plain programs, every schedule.  Signal typing: the interpreter's catch-all case is never reached (creach_typed).  While
   manager.run is pending (creach_exec): each node has at most one task; that task executes the node itself (the "executed
   elsewhere" path is never taken), stores a result before it is saved, sets the node's event exactly when it finishes, and an
   event without a result means the task failed. *)
From MLPE Require Import Engine.Run Proofs.ExecLemmas Proofs.Evolve Proofs.StackInv Explore.StateEq Proofs.ProcessedInv Proofs.PlainWorld Proofs.PlainStep Proofs.PlainLaunch Proofs.PlainLive Proofs.Micro Proofs.PlainBase Proofs.PlainCore Proofs.PlainInv Proofs.StackAll Proofs.PlainRoles.

Definition is_start_frame (f : frame) : bool := match f with FNodeStart _ _ _ | FExecStart _ _ _ => true | _ => false end.
Definition is_dup_frame (f : frame) : bool := match f with FExecDup _ => true | _ => false end.
Definition is_after_save (f : frame) : bool := match f with FNodeAfterSave _ _ _ => true | _ => false end.
Definition is_knode (f : frame) : bool := match f with FNodeStart _ _ _ | FNodeAfterExec _ _ | FNodeAfterSave _ _ _ => true | _ => false end.
Definition head_ok (k : list frame) : bool := match k with f :: _ => negb (is_start_frame f) | [] => true end.
Definition last_knode (k : list frame) : bool := match k with [] => true | f :: r => is_knode (last r f) end.
Definition sig_of (ts : tstate frame) : option signal := match ts with TReady _ s => Some s | _ => None end.

Lemma knode_bottom n fr rest :
  is_knode fr = true -> forallb (node_frame n) rest = true -> chainb (fr :: rest) = true -> rest = [].
Proof.
  intros Hk Ho Hc. destruct rest as [|g r]; [reflexivity|]. exfalso. cbn [chainb] in Hc. apply andb_true_iff in Hc. destruct Hc as [Hc _].
  cbn [forallb] in Ho. apply andb_true_iff in Ho. destruct Ho as [Hg _].
  destruct fr; try discriminate Hk; destruct g; try discriminate Hg; try discriminate Hc;
    cbn in Hg; repeat match goal with e : evkind |- _ => destruct e end; repeat match goal with o : option key |- _ => destruct o end; try discriminate Hg; discriminate Hc.
Qed.

Lemma last_app_ne {A} (a b : list A) (d : A) : b <> [] -> last (a ++ b) d = last b d.
Proof.
  intros Hb. induction a as [|x a IH]; [reflexivity|]. cbn [app].
  assert (Hne : a ++ b <> []) by (destruct a; [exact Hb|discriminate]).
  destruct (a ++ b) as [|y l] eqn:E; [contradiction|]. change (last (x :: y :: l) d) with (last (y :: l) d). exact IH.
Qed.

Definition handled (fr : frame) (sg : signal) : bool :=
  match fr, sg with
  | _, SThrow _ => true
  | (FChartStart | FRunWait | FDagStart _ | FDagLoop _ _ _ | FDagFinal _ | FNodeStart _ _ _ | FExecStart _ _ _ | FExecDup _
     | FRetry _ _ _ _ | FRetryAfterBody _ _ _ | FRetryAfterSleep _ _ _ | FEmit _ _ _ _ _ _ | FSave _ _ _ _), SGo => true
  | (FChartAfterStart | FChartAfterRun | FChartAfterEmitOk _ | FChartAfterEmitErr _ | FNodeAfterExec _ _ | FNodeAfterSave _ _ _
     | FExecAfterStart _ _ _ | FExecAfterBody _ _ | FExecAfterOk _ _ _ | FExecAfterErr _ _ | FRetryAfterEmit _ _ _), SVal _ => true
  | FNodeAfterExec _ _, SElsewhere => true
  | _, _ => false
  end.

Definition typed_stack (k : list frame) (sg : signal) : bool := match k with f :: _ => handled f sg | [] => true end.
Definition typed_ts (ts : tstate frame) : Prop :=
  match ts with
  | TReady k sg => typed_stack k sg = true
  | TWait _ k => typed_stack k SGo = true
  | TDone _ => True
  end.
Definition typed_TP (x : task frame) : Prop := typed_ts (t_state x).
Definition typed_dir (fr : frame) (rest : list frame) (d : directive) : Prop :=
  match d with
  | DSuspend _ k' | DYield k' => typed_stack (k' ++ rest) SGo = true
  | DCont k' s' => typed_stack (k' ++ rest) s' = true
  | DRet s' => typed_stack rest s' = true
  end.

Lemma handled_throw f e : handled f (SThrow e) = true.
Proof. destruct f; reflexivity. Qed.
Lemma typed_throw k e : typed_stack k (SThrow e) = true.
Proof. destruct k; [reflexivity|apply handled_throw]. Qed.

Section Typed.
  Variable P : prog.

  Lemma plain_step_typed t fr rest sg st :
    plain_frame P fr = true -> clean_sig sg -> PS st -> handled fr sg = true -> chainb (fr :: rest) = true -> plain_stack P rest = true ->
    typed_dir fr rest (snd (step_frame P t fr sg st)).
  Proof.
    intros Hf Hs Hst Hh Hc Hpr. rewrite (step_dir P t fr sg st Hf Hs Hst).
    assert (Hret : forall s', (forall g, plain_frame P g = true -> awaits_b g (cls_of fr) = true -> handled g s' = true) -> typed_stack rest s' = true).
    { intros s' H. destruct rest as [|g r]; [reflexivity|]. cbn [typed_stack]. cbn [plain_stack forallb] in Hpr. apply andb_true_iff in Hpr.
      apply H; [apply Hpr|]. cbn [chainb] in Hc. apply andb_true_iff in Hc. apply Hc. }
    revert Hret.
    plain_cases fr sg Hf Hs; try discriminate Hh; cbn [typed_dir app typed_stack emit_frames handled cls_of]; intros Hret; try reflexivity;
      try apply typed_throw;
      try (apply Hret; intros g Hpg Hg; destruct g; try discriminate Hg; try discriminate Hpg; reflexivity).
  Qed.
End Typed.

Section TypedInv.
  Variable P : prog.
  Notation G := (b_graph (build (p_decls P) (p_inp P) (p_out P))).
  Hypothesis Hsw : forall n, is_switch G n = false.
  Hypothesis Hhd : forall n, is_head G n = false.
  Hypothesis Hbody : forall i kw a v, p_body P i kw a = OVal v -> clean v = true.

  Definition typed_cur (c : running) : Prop := match c with Some (_, k, sg) => typed_stack k sg = true | None => True end.

  Theorem creach_typed : forall st c, creach P st c -> tasks_ok typed_TP st /\ typed_cur c.
  Proof.
    intros st c H.
    destruct (creach_tstate_inv P (fun _ _ => typed_ts) (fun _ => True)) with (st := st) (c := c) as (A & B & _); try exact H; auto.
    - intros _ _ k sg _. apply typed_throw.
    - intros _ _ w k _. apply typed_throw.
    - intros _ _ k. exact I.
    - reflexivity.
    - intros. exact I.
    - intros st0 t fr rest sg H0 _ B0 _. pose proof (creach_base P Hsw Hhd Hbody _ _ H0) as Hb.
      destruct (base_running P _ _ _ _ _ Hb) as (x0 & _ & _ & _ & Kf & Kr & Hs & _ & _ & Hc).
      split; [|split; [|exact I]].
      + (* the tasks a plain program creates start with a frame that takes SGo *)
        intros i f _ Hsp. destruct f; cbn [spawns] in Hsp; try contradiction; try reflexivity.
        * destruct Hsp as (r & l & _ & E). rewrite Hsw in E. discriminate E.
        * destruct Hsp as (r & l & _ & _ & E & _). rewrite Hhd in E. discriminate E.
        * destruct Hsp as (_ & -> & E). rewrite (clean_not_rec _ Hs) in E. discriminate E.
      + pose proof (plain_step_typed P t fr rest sg st0 Kf Hs (b_ps _ _ _ Hb) B0 Hc Kr) as Hd.
        destruct (snd (step_frame P t fr sg st0)) as [w k'|k'|k' sg'|sg']; cbn [nstate typed_dir] in *;
          [exact Hd|exact Hd|destruct (k' ++ rest)|destruct rest]; first [exact I|exact Hd].
    - split; [exact A|]. destruct c as [[[t k] sg]|]; [|exact I]. destruct k; [reflexivity|exact B].
  Qed.
End TypedInv.

From MLPE Require Import Proofs.AssocLemmas.

Lemma result_set m n v s : s_res_hidden s = [] -> exists_result m (set_result n v s) = key_eqb m n || exists_result m s.
Proof.
  intros Hh. unfold exists_result, get_result_opt, set_result. cbn. rewrite Hh. cbn.
  destruct (key_eqb m n) eqn:E.
  - apply key_eqb_spec in E. subst. rewrite (alookup_aset_same key_eqb key_eqb_spec). reflexivity.
  - rewrite (alookup_aset_other key_eqb key_eqb_spec); [reflexivity|]. intros ->. rewrite key_eqb_refl in E. discriminate.
Qed.

Lemma result_set_processed m n s : exists_result m (set_processed n s) = exists_result m s.
Proof. reflexivity. Qed.
Lemma processed_set_result m n v s : exists_processed m (set_result n v s) = exists_processed m s.
Proof. reflexivity. Qed.

Lemma node_names_unique (l : list (task frame)) x y m :
  NoDup (flat_map (fun nm => match nm with TNNode k => [k] | _ => [] end) (map (@t_name frame) l)) ->
  In x l -> In y l -> t_id x <> t_id y -> t_name x = TNNode m -> t_name y = TNNode m -> False.
Proof.
  intros Hnd Hx Hy Hne Ex Ey.
  assert (One : forall (r : list (task frame)) z, In z r -> t_name z = TNNode m ->
                                                   In m (flat_map (fun nm => match nm with TNNode k => [k] | _ => [] end) (map (@t_name frame) r))).
  { intros r z Hz Ez. apply in_flat_map. exists (TNNode m). split; [rewrite <- Ez; apply in_map; exact Hz|left; reflexivity]. }
  induction l as [|z r IH]; [contradiction|]. cbn [map flat_map] in Hnd.
  destruct Hx as [Hx|Hx]; destruct Hy as [Hy|Hy].
  - subst. contradiction.
  - subst z. rewrite Ex in Hnd. cbn in Hnd. inversion Hnd; subst. apply H1. exact (One r y Hy Ey).
  - subst z. rewrite Ey in Hnd. cbn in Hnd. inversion Hnd; subst. apply H1. exact (One r x Hx Ex).
  - apply IH; try assumption. clear -Hnd. induction (match t_name z with TNNode k => [k] | _ => [] end) as [|a l' IH']; [exact Hnd|].
    cbn in Hnd. inversion Hnd; subst. apply IH'. assumption.
Qed.

Lemma other_task_other_node P st t fr sg x0 y m :
  NoDup (node_names (fst (step_frame P t fr sg st))) -> find_task t (st_tasks st) = Some x0 ->
  In y (st_tasks (fst (step_frame P t fr sg st))) -> t_id y <> t -> snd (fst (ident y)) = TNNode m -> t_name x0 = TNNode m -> False.
Proof.
  intros Hnd Hf0 Hy Hne Em Enm.
  destruct (evolves_find _ _ _ _ (ev_step_frame P t fr sg st) Hf0) as [x' [Hf' [Hnm' [_ Hid']]]]. destruct (find_task_in _ _ _ Hf') as [Hin' Hid''].
  apply (node_names_unique _ y x' m Hnd Hy Hin'); [congruence|exact Em|congruence].
Qed.

Definition on_node (Q : key -> tstate frame -> Prop) (i : idt) (ts : tstate frame) : Prop := forall m, snd (fst i) = TNNode m -> Q m ts.


(* one frame step as the node tasks see it: an invariant that claims something of every node task is preserved if it holds of the
   node task the step creates, survives in the tasks of the other nodes (the frame that runs belongs to another task), and is
   re-established by the task that runs *)
Section NodeTasks.
  Variable P : prog.
  Notation G := (b_graph (build (p_decls P) (p_inp P) (p_out P))).
  Hypothesis Hsw : forall n, is_switch G n = false.
  Hypothesis Hhd : forall n, is_head G n = false.

  Lemma allT_node_step (Q Q' : key -> tstate frame -> Prop) st t fr rest sg :
    base P st (Some (t, fr :: rest, sg)) ->
    NoDup (node_names (fst (step_frame P t fr sg st))) ->
    leaves_run fr sg (snd (step_frame P t fr sg st)) = false ->
    allT (on_node Q) st (Some (t, fr :: rest, sg)) -> wake_closed (on_node Q) ->
    (forall m, In (TNNode m) (creates P fr sg st) -> Q m (TReady [FNodeStart (maind P) m false] SGo)) ->
    (forall nm m ts, owner nm fr = true -> In nm (names st) -> nm <> TNNode m ->
                     In (TNNode m) (names (fst (step_frame P t fr sg st))) -> Q m ts -> Q' m ts) ->
    (forall m, owner (TNNode m) fr = true -> forallb (owner (TNNode m)) rest = true ->
               (forall R, allT (on_node R) st (Some (t, fr :: rest, sg)) -> R m (TReady (fr :: rest) sg)) ->
               Q' m (nstate rest (snd (step_frame P t fr sg st)))) ->
    allT (on_node Q') (fst (after_step t rest (step_frame P t fr sg st))) (snd (after_step t rest (step_frame P t fr sg st))).
  Proof.
    intros Hb Hnd1 Hlr HQ Hw Hsp Hoth Hrun.
    destruct (base_running P _ _ _ _ _ Hb) as (x0 & Hf0 & Hin0 & Hid0 & Kf & Kr & Hs & Of & Or & Hc).
    pose proof (in_names _ _ Hin0) as Hnm0.
    apply (allT_step P Hsw Hhd (on_node Q)); try assumption.
    - intros nm Hnm m Em. cbn [fst snd] in Em. subst nm. apply Hsp. exact Hnm.
    - (* one task per node: the frame that runs is not owned by the task of m *)
      intros y ts Hy Hne Hyp m Em. apply (Hoth (t_name x0) m ts Of Hnm0); [| |exact (Hyp m Em)].
      + intros Enm. exact (other_task_other_node P st t _ _ x0 y m Hnd1 Hf0 Hy Hne Em Enm).
      + cbn [ident fst snd] in Em. rewrite <- Em. apply in_names. exact Hy.
    - intros x Hx Hid. rewrite (run_ident P st t fr sg x0 x (b_ev _ _ _ Hb) Hf0 Hx Hid). intros m Em. cbn [ident fst snd] in Em.
      rewrite Em in Of, Or. apply Hrun; try assumption. intros R HR. exact (allT_run _ _ _ _ _ _ x0 HR Hin0 Hid0 m Em).
  Qed.
End NodeTasks.

Section NodeSteps.
  Variable P : prog.

  Lemma plain_step_starts t fr sg st :
    plain_frame P fr = true -> clean_sig sg -> PS st ->
    forallb (fun f => negb (is_start_frame f)) (tl (dir_frames (snd (step_frame P t fr sg st)))) = true /\
    (head_ok (dir_frames (snd (step_frame P t fr sg st))) = false -> exists d0 n f, fr = FNodeStart d0 n f).
  Proof.
    intros Hf Hs Hst. rewrite (step_dir P t fr sg st Hf Hs Hst).
    plain_cases fr sg Hf Hs; cbn [snd dir_frames tl forallb head_ok is_start_frame negb emit_frames andb];
      (split; [reflexivity|intros H; try discriminate H; eauto]).
  Qed.

  Lemma plain_step_dup t fr sg st :
    plain_frame P fr = true -> clean_sig sg -> PS st ->
    existsb is_dup_frame (dir_frames (snd (step_frame P t fr sg st))) = true \/ dir_sig (snd (step_frame P t fr sg st)) = Some SElsewhere ->
    (exists d0 n f, fr = FExecStart d0 n f /\ sg = SGo /\ exists_processed n (st_store st) = true) \/ (exists n, fr = FExecDup n).
  Proof.
    intros Hf Hs Hst. rewrite (step_dir P t fr sg st Hf Hs Hst).
    plain_cases fr sg Hf Hs; cbn [snd dir_frames dir_sig existsb is_dup_frame emit_frames orb];
      intros [H|H]; try discriminate H; eauto 10.
  Qed.

  Lemma plain_step_after_save t fr sg st :
    plain_frame P fr = true -> clean_sig sg -> PS st ->
    existsb is_after_save (dir_frames (snd (step_frame P t fr sg st))) = true -> exists d0 n res, fr = FNodeAfterExec d0 n /\ sg = SVal res.
  Proof.
    intros Hf Hs Hst. rewrite (step_dir P t fr sg st Hf Hs Hst).
    plain_cases fr sg Hf Hs; cbn [snd dir_frames existsb is_after_save emit_frames orb]; intros H; try discriminate H; eauto.
  Qed.

  (* the bottom frame of a node task returns only through its `finally` *)
  Lemma plain_step_knode_ret t fr sg st s' :
    plain_frame P fr = true -> clean_sig sg -> PS st -> is_knode fr = true -> handled fr sg = true ->
    snd (step_frame P t fr sg st) = DRet s' -> sg <> SElsewhere -> (forall d0 n f, fr = FNodeStart d0 n f -> sg = SGo) ->
    exists n, step_event fr sg = Some n /\ ((exists e, s' = SThrow e) \/ is_after_save fr = true).
  Proof.
    intros Hf Hs Hst Hk Hh. rewrite (step_dir P t fr sg st Hf Hs Hst).
    plain_cases fr sg Hf Hs; try discriminate Hk; try discriminate Hh; cbn [snd step_event is_after_save];
      intros H Hnels Hst0; try discriminate H; inversion H; subst; eauto;
      try (exfalso; apply Hnels; reflexivity); try (specialize (Hst0 _ _ _ eq_refl); discriminate Hst0).
  Qed.

  Lemma plain_step_event_ret t fr sg st n :
    plain_frame P fr = true -> clean_sig sg -> PS st -> step_event fr sg = Some n ->
    exists s', snd (step_frame P t fr sg st) = DRet s'.
  Proof.
    intros Hf Hs Hst. rewrite (step_dir P t fr sg st Hf Hs Hst).
    plain_cases fr sg Hf Hs; cbn [snd step_event]; intros H; try discriminate H; eauto.
  Qed.
End NodeSteps.

Lemma nostart_head k : forallb (fun f => negb (is_start_frame f)) k = true -> head_ok k = true.
Proof. destruct k as [|f r]; [reflexivity|]. cbn. intros H. apply andb_true_iff in H. apply H. Qed.

Lemma sig_of_nstate rest d s : sig_of (nstate rest d) = Some s -> dir_sig d = Some s \/ s = SGo.
Proof.
  destruct d as [w k'|k'|k' sg'|sg']; cbn [nstate sig_of dir_sig].
  - discriminate.
  - intros H. inversion H. auto.
  - destruct (k' ++ rest); cbn; [discriminate|]. intros H. inversion H. auto.
  - destruct rest; cbn; [discriminate|]. intros H. inversion H. auto.
Qed.

Lemma nstate_done rest fr d r : dir_ok fr d -> nstate rest d = TDone r -> d = DRet r /\ rest = [].
Proof.
  destruct d as [w k'|k'|k' sg'|sg']; cbn [nstate dir_ok]; try discriminate.
  - intros [Hne _]. destruct k'; [contradiction|]. cbn. discriminate.
  - intros _. destruct rest; [|discriminate]. intros H. inversion H. auto.
Qed.

Lemma NoDup_app_l {A} (a b : list A) : NoDup (a ++ b) -> NoDup a.
Proof.
  induction a as [|x a IH]; intros H; [constructor|]. cbn in H. inversion H; subst. constructor.
  - intros Hin. apply H2. apply in_or_app. left. exact Hin.
  - apply IH. assumption.
Qed.

Lemma step_store_res_mono fr sg (st : mstate) m :
  s_res_hidden (st_store st) = [] -> exists_result m (st_store st) = true -> exists_result m (step_store fr sg st) = true.
Proof.
  intros Hh H. unfold step_store. destruct fr; try exact H; destruct sg; try exact H.
  - rewrite (result_set _ _ _ _ Hh), H. apply orb_true_r.
  - destruct (exists_processed n (st_store st)); exact H.
Qed.

Definition frame_key (fr : frame) : option key :=
  match fr with FNodeAfterExec _ n | FNodeAfterSave _ n _ | FExecStart _ n _ | FNodeStart _ n _ => Some n | _ => None end.
Lemma owner_frame_key nm fr n : owner nm fr = true -> frame_key fr = Some n -> nm = TNNode n.
Proof.
  destruct fr; cbn [frame_key]; intros Ho H; try discriminate H; inversion H; subst;
    destruct nm; try discriminate Ho; cbn in Ho; apply key_eqb_spec in Ho; subst; reflexivity.
Qed.

Lemma step_untouched nm fr sg (st : mstate) m :
  owner nm fr = true -> nm <> TNNode m -> s_res_hidden (st_store st) = [] ->
  exists_processed m (step_store fr sg st) = exists_processed m (st_store st) /\
  exists_result m (step_store fr sg st) = exists_result m (st_store st) /\
  (forall n, step_event fr sg = Some n -> key_eqb m n = false).
Proof.
  intros Ho Hne Hh.
  assert (K : forall n, frame_key fr = Some n -> key_eqb m n = false).
  { intros n Hn. destruct (key_eqb m n) eqn:E; [|reflexivity]. apply key_eqb_spec in E. subst n. exfalso. apply Hne.
    exact (owner_frame_key _ _ _ Ho Hn). }
  destruct fr; destruct sg; cbn [step_store step_event];
    try match goal with |- context [if ?u then _ else _] => destruct u eqn:? end;
    repeat split; try reflexivity;
    try (intros n0 Hn0; first [discriminate Hn0 | inversion Hn0; subst; apply K; reflexivity]);
    try (rewrite processed_set, (K _ eq_refl); reflexivity);
    try (rewrite (result_set _ _ _ _ Hh), (K _ eq_refl); reflexivity).
Qed.

Definition PhiN (st : mstate) (m : key) (ts : tstate frame) : Prop :=
  (exists_processed m (st_store st) = true -> head_ok (estack ts) = true) /\
  forallb (fun f => negb (is_start_frame f)) (tl (estack ts)) = true /\
  existsb is_dup_frame (estack ts) = false /\
  sig_of ts <> Some SElsewhere /\
  (existsb is_after_save (estack ts) = true -> exists_result m (st_store st) = true) /\
  last_knode (estack ts) = true /\
  ((exists r, ts = TDone r) <-> event_is_set m st = true) /\
  (event_is_set m st = true -> exists_result m (st_store st) = true \/ exists e, ts = TDone (SThrow e)) /\
  (forall f r s, ts = TReady (f :: r) s -> is_start_frame f = true -> s = SGo) /\
  (head_ok (estack ts) = true -> exists_processed m (st_store st) = true).

Definition PhiE (st : mstate) : idt -> tstate frame -> Prop := on_node (PhiN st).

Lemma PhiE_ext a b i ts : same_core a b -> PhiE a i ts -> PhiE b i ts.
Proof. unfold PhiE, on_node, PhiN, event_is_set. intros (-> & -> & _). auto. Qed.

Lemma PhiE_wake st : wake_closed (PhiE st).
Proof.
  intros i w k H m Hm. destruct (H m Hm) as (A & B & C & D & E & F & G0 & H1 & I0 & J0).
  unfold PhiN. cbn [estack sig_of] in *. repeat split; auto.
  - discriminate.
  - intros [r Hr]. discriminate Hr.
  - intros He. apply G0 in He. destruct He as [r Hr]. discriminate Hr.
  - intros He. destruct (H1 He) as [Hr|[e He']]; [left; exact Hr|discriminate He'].
  - intros f r s Hs _. inversion Hs. reflexivity.
Qed.

Lemma last_cons_default {A} (f : A) k d : last (f :: k) d = last k f.
Proof. revert f d. induction k as [|g k IH]; intros f d; [reflexivity|]. change (last (f :: g :: k) d) with (last (g :: k) d). rewrite (IH g d), (IH g f). reflexivity. Qed.
Lemma is_knode_cls f : is_knode f = true <-> cls_of f = KNode.
Proof. destruct f; cbn; split; intros H; try reflexivity; discriminate H. Qed.

Lemma step_event_key fr sg n : step_event fr sg = Some n -> frame_key fr = Some n.
Proof. destruct fr; destruct sg; cbn; try discriminate; try (destruct unlock; try discriminate); intros H; inversion H; reflexivity. Qed.

Section ExecInv.
  Variable P : prog.
  Notation G := (b_graph (build (p_decls P) (p_inp P) (p_out P))).
  Hypothesis Hsw : forall n, is_switch G n = false.
  Hypothesis Hhd : forall n, is_head G n = false.
  Hypothesis Hbody : forall i kw a v, p_body P i kw a = OVal v -> clean v = true.
  Notation order := (p_order P (maind P)).
  Hypothesis Hnd : NoDup order.

  Lemma PhiN_running st t fr rest sg m :
    base P st (Some (t, fr :: rest, sg)) -> handled fr sg = true ->
    owner (TNNode m) fr = true -> forallb (owner (TNNode m)) rest = true ->
    PhiN st m (TReady (fr :: rest) sg) ->
    PhiN (fst (step_frame P t fr sg st)) m (nstate rest (snd (step_frame P t fr sg st))).
  Proof.
    intros Hb Hh Of Or (O1 & O1' & O2 & O2' & O3 & O9 & O4 & O7 & O10 & O11).
    destruct (base_running P _ _ _ _ _ Hb) as (_ & _ & _ & _ & Kf & Kr & Hs & _ & _ & Hc). pose proof (b_ps _ _ _ Hb) as Hps. destruct (Hps : plain_store _) as [_ [Hrh _]].
    destruct (step_effects P t fr sg st Kf Hs Hps) as (_ & _ & Hst & Hev).
    destruct (plain_step_starts P t fr sg st Kf Hs Hps) as [St1 St2].
    pose proof (plain_step_dup P t fr sg st Kf Hs Hps) as Hdup.
    pose proof (plain_step_after_save P t fr sg st Kf Hs Hps) as Has.
    pose proof (step_frame_dir_ok P t fr sg st) as Hdo.
    pose proof (plain_step_knode_ret P t fr sg st) as Hkr.
    pose proof (plain_step_event_ret P t fr sg st) as Her.
    cbn [estack tl sig_of] in O1, O1', O2, O2', O3, O9.
    cbn [existsb] in O2, O3. apply orb_false_iff in O2. destruct O2 as [O2a O2b].
    assert (Hnev : event_is_set m st = false).
    { destruct (event_is_set m st) eqn:E; [|reflexivity]. destruct (proj2 O4 eq_refl) as [r Hr]. discriminate Hr. }
    assert (Hkey : forall n, frame_key fr = Some n -> n = m).
    { intros n Hn. pose proof (owner_frame_key _ _ _ Of Hn) as E. inversion E. reflexivity. }
    assert (Hset : event_is_set m (fst (step_frame P t fr sg st)) = true ->
                   exists s', snd (step_frame P t fr sg st) = DRet s' /\ rest = [] /\ step_event fr sg = Some m /\ is_knode fr = true).
    { rewrite Hev. destruct (step_event fr sg) as [n|] eqn:Ese; [|rewrite Hnev; discriminate].
      rewrite Hnev, orb_false_r. intros E. apply key_eqb_spec in E. subst n.
      destruct (Her m Kf Hs Hps eq_refl) as [s' Hd]. exists s'.
      assert (Hkn : is_knode fr = true) by (destruct fr; try discriminate Ese; reflexivity).
      repeat split; try assumption. exact (knode_bottom m fr rest Hkn Or Hc). }
    set (d := snd (step_frame P t fr sg st)) in *.
    unfold PhiN. rewrite estack_nstate.
    repeat split.
    -
      intros Hp. destruct (dir_frames d) as [|f k''] eqn:Ed.
      + cbn [app]. apply nostart_head. exact O1'.
      + cbn [app head_ok]. destruct (is_start_frame f) eqn:Ef; [|reflexivity]. exfalso.
        destruct St2 as [d0 [n [f0 Efr]]]; [cbn [head_ok]; rewrite Ef; reflexivity|]. subst fr.
        rewrite Hst in Hp. cbn [step_store] in Hp. specialize (O1 Hp). cbn in O1. discriminate O1.
    -
      destruct (dir_frames d) as [|f k''] eqn:Ed.
      + cbn [app]. destruct rest as [|g r]; [reflexivity|]. cbn [tl]. cbn [forallb] in O1'. apply andb_true_iff in O1'. apply O1'.
      + cbn [app tl]. cbn [tl] in St1. rewrite forallb_app, St1, O1'. reflexivity.
    - (* no duplicate-request frame *)
      rewrite existsb_app, O2b, orb_false_r. destruct (existsb is_dup_frame (dir_frames d)) eqn:E; [|reflexivity]. exfalso.
      destruct (Hdup (or_introl eq_refl)) as [[d0 [n [f [-> [-> Hp]]]]]|[n ->]]; [|discriminate O2a].
      rewrite (Hkey n eq_refl) in Hp. specialize (O1 Hp). discriminate O1.
    - (* never "executed elsewhere" *)
      intros Hse. destruct (sig_of_nstate _ _ _ Hse) as [Hd|Hd]; [|discriminate Hd].
      destruct (Hdup (or_intror Hd)) as [[d0 [n [f [-> [-> Hp]]]]]|[n ->]]; [|discriminate O2a].
      rewrite (Hkey n eq_refl) in Hp. specialize (O1 Hp). discriminate O1.
    -
      rewrite existsb_app. intros H. rewrite Hst. apply orb_true_iff in H. destruct H as [H|H].
      + destruct (Has H) as [d0 [n [res [-> ->]]]]. cbn [step_store]. rewrite (result_set _ _ _ _ Hrh), (Hkey n eq_refl), key_eqb_refl. reflexivity.
      + apply step_store_res_mono; [exact Hrh|]. apply O3. rewrite H. apply orb_true_r.
    -
      assert (Hcase : forall k', seg_ok fr k' -> last_knode (k' ++ rest) = true).
      { intros k' [Hne [_ [Hl _]]]. destruct k' as [|f k'']; [contradiction|]. cbn [app last_knode].
        destruct rest as [|g r].
        - rewrite app_nil_r. rewrite last_cons_default in Hl. cbn [last_knode last] in O9.
          apply is_knode_cls. rewrite Hl. apply is_knode_cls. exact O9.
        - rewrite (last_app_ne k'' (g :: r) f); [|discriminate]. cbn [last_knode] in O9. rewrite last_cons_default in O9. rewrite last_cons_default. exact O9. }
      destruct d as [w k'|k'|k' sg'|sg']; cbn [dir_frames dir_ok] in *; try (apply Hcase; exact Hdo).
      cbn [app]. destruct rest as [|g r]; [reflexivity|]. cbn [last_knode] in *. rewrite last_cons_default in O9. exact O9.
    -
      intros [r Hr]. destruct (nstate_done _ _ _ _ Hdo Hr) as [Hd ->]. cbn [last_knode last] in O9.
      destruct (Hkr r Kf Hs Hps O9 Hh Hd) as [n [Hse _]].
      + intros ->. apply O2'. reflexivity.
      + intros d0 n f ->. apply (O10 _ _ _ eq_refl). reflexivity.
      + rewrite Hev, Hse. assert (n = m) by (apply Hkey; apply (step_event_key _ _ _ Hse)). subst n. rewrite key_eqb_refl. reflexivity.
    -
      intros He. destruct (Hset He) as [s' [Hd [-> _]]]. exists s'. rewrite Hd. reflexivity.
    -
      intros He. destruct (Hset He) as [s' [Hd [-> [Hse Hkn]]]].
      destruct (Hkr s' Kf Hs Hps Hkn Hh Hd) as [n [_ [[e ->]|Has']]].
      + intros ->. apply O2'. reflexivity.
      + intros d0 n f ->. apply (O10 _ _ _ eq_refl). reflexivity.
      + right. exists e. rewrite Hd. reflexivity.
      + left. rewrite Hst. apply step_store_res_mono; [exact Hrh|]. apply O3. rewrite Has'. reflexivity.
    -
      intros f r s Hn Hsf.
      assert (Hstk : dir_frames d ++ rest = f :: r) by (rewrite <- estack_nstate, Hn; reflexivity).
      destruct (dir_frames d) as [|f' k''] eqn:Ed.
      + cbn [app] in Hstk. subst rest. cbn [forallb] in O1'. rewrite Hsf in O1'. discriminate O1'.
      + cbn [app] in Hstk. inversion Hstk; subst f'.
        destruct St2 as [d1 [n1 [f1 Efr]]]; [cbn [head_ok]; rewrite Hsf; reflexivity|]. subst fr.
        pose proof (O10 _ _ _ eq_refl eq_refl) as Esg. subst sg. unfold d in Hn. cbn [step_frame snd nstate app] in Hn. inversion Hn. reflexivity.
    - (* a node task that is past its first two frames has marked the node *)
      intros Hh'. rewrite Hst.
      destruct (is_start_frame fr) eqn:Efs.
      + (* the running frame is one of the two start frames: signal SGo *)
        pose proof (O10 _ _ _ eq_refl Efs) as Esg. subst sg.
        destruct fr; try discriminate Efs.
        * exfalso. unfold d in Hh'. cbn [step_frame snd dir_frames app head_ok is_start_frame negb] in Hh'. discriminate Hh'.
        * cbn [step_store]. rewrite (Hkey n eq_refl).
          destruct (exists_processed m (st_store st)) eqn:Ep; [exact Ep|]. rewrite processed_set, key_eqb_refl. reflexivity.
      + assert (Hp : exists_processed m (st_store st) = true) by (apply O11; cbn [estack head_ok]; rewrite Efs; reflexivity).
        unfold step_store. destruct fr; try exact Hp; destruct sg; try exact Hp.
        destruct (exists_processed n (st_store st)); [exact Hp|]. rewrite processed_set, Hp. apply orb_true_r.
  Qed.

  Definition globE (st : mstate) : Prop := forall m, event_is_set m st = true -> In m (node_names st).
  Definition execI (st : mstate) (c : running) : Prop := guard st \/ (globE st /\ allT (PhiE st) st c).

  Lemma roles_nodup st c : globR st -> allT (PhiR P st) st c -> NoDup (node_names st).
  Proof.
    intros (_ & _ & G3) HA.
    assert (Hdec : In TNRun (names st) \/ ~ In TNRun (names st)).
    { destruct (existsb is_run_name (names st)) eqn:E.
      - left. apply existsb_exists in E. destruct E as [nm [Hin Hn]]. destruct nm; try discriminate Hn. exact Hin.
      - right. intros Hin. assert (existsb is_run_name (names st) = true) by (apply existsb_exists; exists TNRun; auto). congruence. }
    destruct Hdec as [Hin|Hno]; [|rewrite (G3 Hno); constructor].
    unfold names in Hin. apply in_map_iff in Hin. destruct Hin as [x [Hnm Hx]].
    destruct (allT_In _ _ _ x HA Hx) as (_ & _ & _ & D & _). cbn [ident fst snd] in D. destruct (D Hnm) as [r [_ Ho]].
    apply (NoDup_app_l _ r). rewrite <- Ho. exact Hnd.
  Qed.

  Lemma PhiN_same st st' m ts :
    exists_processed m (st_store st') = exists_processed m (st_store st) ->
    exists_result m (st_store st') = exists_result m (st_store st) ->
    event_is_set m st' = event_is_set m st -> PhiN st m ts -> PhiN st' m ts.
  Proof. unfold PhiN. intros -> -> ->. auto. Qed.

  Lemma globE_ext a b : same_core a b -> globE a -> globE b.
  Proof. unfold globE, node_names, event_is_set. intros (_ & -> & _ & -> & _). auto. Qed.

  Lemma nodup_next st t fr rest sg :
    creach P st (Some (t, fr :: rest, sg)) -> ~ guard (fst (after_step t rest (step_frame P t fr sg st))) ->
    NoDup (node_names (fst (step_frame P t fr sg st))).
  Proof.
    intros H Hg. destruct (unguard _ _ (creach_roles P Hsw Hhd Hbody _ _ (cr_step P st t fr rest sg H)) Hg) as [HG HA].
    pose proof (roles_nodup _ _ HG HA) as Hn. unfold node_names in *. rewrite names_after_step in Hn. exact Hn.
  Qed.

  Lemma execA_step st t fr rest sg :
    base P st (Some (t, fr :: rest, sg)) -> handled fr sg = true ->
    globR st -> allT (PhiR P st) st (Some (t, fr :: rest, sg)) ->
    NoDup (node_names (fst (step_frame P t fr sg st))) ->
    globE st -> allT (PhiE st) st (Some (t, fr :: rest, sg)) ->
    leaves_run fr sg (snd (step_frame P t fr sg st)) = false ->
    globE (fst (step_frame P t fr sg st)) /\
    allT (PhiE (fst (step_frame P t fr sg st)))
         (fst (after_step t rest (step_frame P t fr sg st))) (snd (after_step t rest (step_frame P t fr sg st))).
  Proof.
    intros Hb Hh HG HA Hnd1 GE HE Hlr. destruct HG as (G1 & G2 & G3).
    destruct (base_running P _ _ _ _ _ Hb) as (x0 & Hf0 & Hin0 & Hid0 & Kf & Kr & Hs & Of & Or & Hc).
    pose proof (b_ps _ _ _ Hb) as Hps. destruct (Hps : plain_store _) as [_ [Hrh _]].
    destruct (step_effects P t fr sg st Kf Hs Hps) as (_ & Hnode & Hst & Hev).
    destruct (allT_run _ _ _ _ _ _ x0 HA Hin0 Hid0) as (_ & _ & _ & X4 & _). cbn [ident fst snd] in X4.
    pose proof (in_names _ _ Hin0) as Hnm0. pose proof (base_next _ _ _ Hb) as Hnx.
    split.
    -
      intros m Hm. rewrite Hnode. apply in_or_app. left.
      rewrite Hev in Hm. destruct (step_event fr sg) as [n|] eqn:Ese; [|apply GE; exact Hm].
      apply orb_true_iff in Hm. destruct Hm as [Hm|Hm]; [|apply GE; exact Hm].
      apply key_eqb_spec in Hm. subst n. apply node_names_in. rewrite <- (owner_frame_key _ _ _ Of (step_event_key _ _ _ Ese)). exact Hnm0.
    - apply (allT_node_step P Hsw Hhd (PhiN st)); try assumption.
      + apply PhiE_wake.
      + (* the task the launcher creates for the next node of the order: nothing is recorded for that node yet *)
        intros m Hnm.
        destruct (creates_shape P fr sg st _ Hnm) as [[E _]|[d [n [r [l0 [-> [E ->]]]]]]]; [discriminate E|]. inversion E; subst n. clear E.
        assert (Hnot : ~ In m (node_names st)).
        { destruct (X4 (owner_dag_loop _ _ _ _ Of)) as [r0 [Hr0 Hor]].
          assert (r0 = m :: r) by (destruct rest; [cbn in Hr0; inversion Hr0; reflexivity|discriminate Hr0]). subst r0.
          intros Hin. pose proof Hnd as Hnd'. rewrite Hor in Hnd'. apply NoDup_remove_2 in Hnd'. apply Hnd'. apply in_or_app. left. exact Hin. }
        unfold PhiN. cbn [estack tl forallb existsb is_dup_frame is_after_save sig_of last_knode last is_knode head_ok is_start_frame negb].
        repeat split; try reflexivity; try discriminate.
        * intros Hp. exfalso. apply Hnot. apply G1. exact Hp.
        * intros [r1 Hr1]. discriminate Hr1.
        * intros He. exfalso. apply Hnot. apply GE. exact He.
        * intros He. exfalso. apply Hnot. apply GE. exact He.
        * intros f1 r1 s1 Hs1 _. inversion Hs1. reflexivity.
      + (* the tasks of the other nodes: the frame that runs touches neither their marks, nor their results, nor their events *)
        intros nm m ts Onm _ Hnn _ B. destruct (step_untouched nm fr sg st m Onm Hnn Hrh) as (U1 & U2 & U3).
        apply (PhiN_same st); [rewrite Hst; exact U1|rewrite Hst; exact U2| |exact B].
        rewrite Hev. destruct (step_event fr sg) as [n|] eqn:Ese; [|reflexivity]. rewrite (U3 n eq_refl). reflexivity.
      + intros m Om Omr HR. exact (PhiN_running st t fr rest sg m Hb Hh Om Omr (HR (PhiN st) HE)).
  Qed.

  Lemma names_after_step' t rest r : names (fst (after_step t rest r)) = names (fst r).
  Proof. apply names_after_step. Qed.

  Theorem creach_exec : forall st c, creach P st c -> execI st c.
  Proof.
    apply (creach_guarded P Hsw Hhd Hbody globE PhiE globE_ext PhiE_ext PhiE_wake).
    - intros st k s _ m Em. discriminate Em.
    - intros st w k _ m Em. discriminate Em.
    - intros m Hm. discriminate Hm.
    - intros m Hm. discriminate Hm.
    - intros st t fr rest sg H Hg0 Hg1 Hlr GE HE.
      destruct (unguard _ _ (creach_roles P Hsw Hhd Hbody _ _ H) Hg0) as [HG HA].
      destruct (creach_typed P Hsw Hhd Hbody _ _ H) as [_ Hty].
      exact (execA_step st t fr rest sg (creach_base P Hsw Hhd Hbody _ _ H) Hty HG HA (nodup_next st t fr rest sg H Hg1) GE HE Hlr).
  Qed.
End ExecInv.
