(* Plain programs (`plain_prog`: the built graph has no switch node and no one-of head, bodies never ask for another
   iteration, the inputs are ordinary values; any event managers / artifact store, retry policies and execution modes), every
   schedule: each task runs only the frames of its role (`owner`), and every argument list handed to a body or to
   `get_default`, every artifact handed to the store and every stored result is an ordinary value
   (`plain_prog_values_in_flight`). *)
From MLPE Require Import Engine.Run Proofs.ExecLemmas Proofs.Evolve Proofs.StackInv Proofs.PlainWorld Proofs.PlainStep.

Definition node_frame (n : key) (f : frame) : bool :=
  match f with
  | FNodeStart _ n' _ | FNodeAfterExec _ n' | FNodeAfterSave _ n' _ | FExecStart _ n' _ | FExecDup n' | FExecAfterStart _ n' _
  | FExecAfterBody _ n' | FExecAfterOk _ n' _ => key_eqb n' n
  | FExecAfterErr _ _ => true
  | FEmit EvNodeStart (Some n') _ _ _ _ | FEmit EvNodeComplete (Some n') _ _ _ _ => key_eqb n' n || key_eqb n' (KN (real_index n))
  | FSave n' _ _ _ => key_eqb n' n
  | FRetry i _ _ _ | FRetryAfterBody i _ _ | FRetryAfterEmit i _ _ | FRetryAfterSleep i _ _ => Nat.eqb i (real_index n)
  | _ => false
  end.

Definition is_dag_frame (f : frame) : bool := match f with FDagStart _ | FDagLoop _ _ _ | FDagFinal _ => true | _ => false end.

Definition owner (nm : tname) (f : frame) : bool :=
  match nm with
  | TNMain => main_frame f
  | TNRun => is_dag_frame f
  | TNNode n => node_frame n f
  | _ => false
  end.

Definition owner_TP (x : task frame) : Prop :=
  match t_state x with
  | TReady k _ | TWait _ k => forallb (owner (t_name x)) k = true
  | TDone _ => True
  end.
Lemma owner_wake x w k : t_state x = TWait w k -> owner_TP x -> owner_TP (with_ts x (TReady k SGo)).
Proof. unfold owner_TP. intros E H. rewrite E in H. exact H. Qed.
Lemma owner_cancel_ready x k sg : t_state x = TReady k sg -> owner_TP x -> owner_TP (with_ts x (TReady k (SThrow XCancelled))).
Proof. unfold owner_TP. intros E H. rewrite E in H. exact H. Qed.
Lemma owner_cancel_wait x w k : t_state x = TWait w k -> owner_TP x -> owner_TP (with_ts x (TReady k (SThrow XCancelled))).
Proof. unfold owner_TP. intros E H. rewrite E in H. exact H. Qed.

Lemma evolves_find (st s : mstate) t x :
  evolves st s -> find_task t (st_tasks st) = Some x ->
  exists x', find_task t (st_tasks s) = Some x' /\ t_name x' = t_name x /\ t_helper x' = t_helper x /\ t_id x' = t_id x.
Proof.
  intros [[new [E _]] _ _ _].
  assert (G : forall (l l' : list (task frame)) newl, map ident l' = map ident l ++ newl -> find_task t l = Some x ->
                                                     exists x', find_task t l' = Some x' /\ t_name x' = t_name x /\ t_helper x' = t_helper x /\ t_id x' = t_id x).
  { clear. induction l as [|y r IH]; intros l' newl Em F0; cbn in F0; [discriminate|].
    destruct l' as [|y' r']; [discriminate|]. cbn [map app] in Em. inversion Em as [[Ei En Eh Er]].
    cbn [find_task]. rewrite Ei. destruct (Nat.eqb (t_id y) t).
    - inversion F0; subst. exists y'. auto.
    - exact (IH r' newl Er F0). }
  exact (G _ _ _ E).
Qed.

Lemma nodup_ids_inj (l : list (task frame)) x y :
  NoDup (map (@t_id frame) l) -> In x l -> In y l -> t_id x = t_id y -> x = y.
Proof.
  induction l as [|z r IH]; [contradiction|]. cbn [map]. intros Hnd Hx Hy E. inversion Hnd as [|a b Hni Hr]; subst.
  destruct Hx as [Hx|Hx]; destruct Hy as [Hy|Hy].
  - congruence.
  - subst z. exfalso. apply Hni. rewrite E. apply in_map. exact Hy.
  - subst z. exfalso. apply Hni. rewrite <- E. apply in_map. exact Hx.
  - apply IH; assumption.
Qed.

Section Owner.
  Variable P : prog.
  Notation G := (b_graph (build (p_decls P) (p_inp P) (p_out P))).
  Hypothesis Hsw : forall n, is_switch G n = false.
  Hypothesis Hhd : forall n, is_head G n = false.
  Hypothesis Hbody : forall i kw a v, p_body P i kw a = OVal v -> clean v = true.

  Lemma owner_launcher i : owner_TP {| t_id := i; t_name := TNRun; t_state := TReady [FDagStart (maind P)] SGo; t_helper := true |}.
  Proof. reflexivity. Qed.
  Lemma owner_node i n : owner_TP {| t_id := i; t_name := TNNode n; t_state := TReady [FNodeStart (maind P) n false] SGo; t_helper := true |}.
  Proof. unfold owner_TP. cbn. rewrite key_eqb_refl. reflexivity. Qed.

  Definition dir_frames (d : directive) : list frame :=
    match d with DSuspend _ k' | DYield k' | DCont k' _ => k' | DRet _ => [] end.
  Definition dir_ne (d : directive) : bool := match d with DRet _ => true | DSuspend _ k | DYield k | DCont k _ => match k with [] => false | _ => true end end.

  Lemma plain_step_owner nm t fr sg st :
    plain_frame P fr = true -> owner nm fr = true -> clean_sig sg -> PS st ->
    forallb (owner nm) (dir_frames (snd (step_frame P t fr sg st))) = true.
  Proof.
    intros Hf Ho Hs Hst. rewrite (step_dir P t fr sg st Hf Hs Hst).
    destruct nm as [| |n|? ?|?]; try discriminate Ho;
      destruct fr; try discriminate Hf; try discriminate Ho; cbn [owner node_frame main_frame is_dag_frame] in Ho;
      repeat match goal with Hx : context [match ?x with _ => _ end] |- _ => destruct x; try discriminate Hx end;
      destruct sg; cbn [plain_act fst snd]; unfold report; repeat (break_match; cbn [fst snd]);
      cbn [dir_frames forallb owner node_frame main_frame is_dag_frame emit_frames];
      try reflexivity;
      repeat match goal with
             | H : key_eqb _ _ = true |- _ => apply key_eqb_spec in H; subst
             | H : Nat.eqb _ _ = true |- _ => apply Nat.eqb_eq in H; subst
             end;
      cbn [Nat.eqb key_eqb]; rewrite ?key_eqb_refl, ?Nat.eqb_refl, ?orb_true_r;
      try match goal with H : (_ || _)%bool = true |- _ => rewrite H end; reflexivity.
  Qed.

  Lemma exec_owner fuel t nm k sg st :
    PS st -> tasks_ok owner_TP st -> plain_stack P k = true -> clean_sig sg ->
    forallb (owner nm) k = true -> (forall s x, find_task t (st_tasks s) = Some x -> evolves st s -> t_name x = nm) ->
    tasks_ok owner_TP (exec P fuel t k sg st).
  Proof.
    intros H1 H3 H4 H5 H6 Hnm.
    apply (exec_rule P t (fun k sg s => PS s /\ tasks_ok owner_TP s /\ plain_stack P k = true /\ clean_sig sg
                                        /\ forallb (owner nm) k = true /\ evolves st s)
                     (tasks_ok owner_TP)); [| |auto 10 using evolves_refl].
    - intros sg' s (A & C & _). apply ok_set_tstate; [exact C|]. intros x _ _. exact I.
    - intros fr rest sg' s (A & C & D & E & F & Ev). split; [apply ok_abort; [intros x k0 _; exact I|exact C]|].
      cbn [plain_stack forallb] in D, F. apply andb_true_iff in D. destruct D as [Df Dr]. apply andb_true_iff in F. destruct F as [Ff Fr].
      pose proof (plain_step_dir P Hbody t fr sg' s Df E A) as Hd.
      pose proof (plain_step_store P t fr sg' s Df E A) as Hs.
      pose proof (plain_step_tasks_gen P Hsw Hhd owner_TP owner_wake owner_cancel_ready owner_cancel_wait owner_launcher owner_node t fr sg' s Df E A C) as Hto.
      pose proof (plain_step_owner nm t fr sg' s Df Ff E A) as Ho.
      pose proof (evolves_trans _ _ _ Ev (ev_step_frame P t fr sg' s)) as Ev1.
      destruct (step_frame P t fr sg' s) as [st1 [w k'|k'|k' sg''|sg'']]; cbn [fst snd dir_plain dir_frames] in *.
      + apply ok_suspend; [exact Hto|]. intros x Hx _. unfold owner_TP. cbn. rewrite (Hnm st1 x Hx Ev1), forallb_app, Ho. exact Fr.
      + apply ok_push_ready. apply ok_set_tstate; [exact Hto|]. intros x Hx _. unfold owner_TP. cbn.
        rewrite (Hnm st1 x Hx Ev1), forallb_app, Ho. exact Fr.
      + destruct Hd as [Hk Hsg]. unfold plain_stack in *. rewrite !forallb_app, Hk, Ho. auto 10.
      + auto 10.
  Qed.

  Theorem reachable_owner : forall st, reachable P st -> tasks_ok owner_TP st.
  Proof.
    apply (reachable_inv P (tasks_ok owner_TP)).
    - unfold tasks_ok, init_state. cbn. constructor; [reflexivity|constructor].
    - intros st Hr H. destruct (reachable_plain P Hsw Hhd Hbody st Hr) as [A B].
      apply (loop_step_rule P (tasks_ok owner_TP)); [auto| |].
      + intros. apply ok_dequeue. exact H.
      + intros t rest x k sg Hq Hf Ht. destruct (find_task_in _ _ _ Hf) as [Hin _].
        unfold tasks_ok in B, H. rewrite Forall_forall in B, H. pose proof (B x Hin) as Hx. pose proof (H x Hin) as Hox.
        unfold plain_TP in Hx. unfold owner_TP in Hox. rewrite Ht in Hx, Hox. destruct Hx as [Hk Hsg].
        apply (exec_owner _ t (t_name x)); try assumption.
        * apply ok_dequeue. unfold tasks_ok. rewrite Forall_forall. exact H.
        * intros s y Hy Ev. destruct (evolves_find _ _ _ _ Ev Hf) as [y' [Hy' [Hnm _]]]. congruence.
    - intros st g _ H. apply (complete_gate_tasks_ok owner_TP owner_wake). exact H.
    - intros st _ H. apply (ok_cancel_task owner_TP owner_cancel_ready owner_cancel_wait). exact H.
  Qed.
End Owner.

(* Arguments handed to bodies and to get_default, artifacts handed to the store and results put into the node storage are
   ordinary values: never a failure object, never a request for another iteration. *)
Definition kw_clean (kw : kwargs) : bool := forallb (fun pv => clean (snd pv)) kw.

Definition obs_clean (o : obs) : bool :=
  match o with
  | OStart _ _ kw | ODefault _ kw => kw_clean kw
  | OSave _ v | OSetResult _ v => clean v
  | OHide _ => false                        (* nothing is ever invalidated in a plain run *)
  | _ => true
  end.

Definition trace_clean (st : mstate) : Prop := forallb obs_clean (st_trace st) = true.

Definition kw_frame (f : frame) : bool :=
  match f with
  | FRetry _ _ kw _ | FRetryAfterBody _ kw _ | FRetryAfterEmit _ kw _ | FRetryAfterSleep _ kw _ => kw_clean kw
  | _ => true
  end.
Definition kw_stack (k : list frame) : bool := forallb kw_frame k.
Definition kw_TP (x : task frame) : Prop :=
  match t_state x with
  | TReady k _ | TWait _ k => kw_stack k = true
  | TDone _ => True
  end.

Section TraceClean.
  Variable P : prog.
  Notation G := (b_graph (build (p_decls P) (p_inp P) (p_out P))).
  Notation inp := (b_input (build (p_decls P) (p_inp P) (p_out P))).
  Hypothesis Hsw : forall n, is_switch G n = false.
  Hypothesis Hhd : forall n, is_head G n = false.
  Hypothesis Hbody : forall i kw a v, p_body P i kw a = OVal v -> clean v = true.
  Hypothesis Hinput : kw_clean (p_input P) = true.

  Lemma kw_insert_clean p v kw : clean v = true -> kw_clean kw = true -> kw_clean (kw_insert p v kw) = true.
  Proof.
    intros Hv. unfold kw_clean. induction kw as [|[q w] r IH]; cbn [kw_insert forallb snd]; [rewrite Hv; reflexivity|].
    intros H. apply andb_true_iff in H. destruct H as [H1 H2]. cbn [snd] in H1.
    destruct (Nat.ltb p q); cbn [forallb snd]; [rewrite Hv, H1, H2; reflexivity|].
    destruct (Nat.eqb p q); cbn [forallb snd]; [rewrite Hv, H2; reflexivity|rewrite H1, IH; auto].
  Qed.

  Lemma node_kwargs_clean st n kw :
    plain_store (st_store st) -> st_adddata st = [] -> node_kwargs P st n = Some kw -> kw_clean kw = true.
  Proof.
    intros Hst Had. unfold node_kwargs. rewrite Had. cbn [alookup].
    destruct (key_eqb n inp).
    - intros H. inversion H; subst. exact Hinput.
    - match goal with |- context [fold_left ?f ?l ?a] => set (F := f); set (L := l) end.
      assert (K : forall l acc, (forall kw0, acc = Some kw0 -> kw_clean kw0 = true) ->
                                forall kw0, fold_left F l acc = Some kw0 -> kw_clean kw0 = true).
      { induction l as [|pe r IH]; intros acc Ha kw0; cbn [fold_left]; [apply Ha|].
        apply IH. intros kw1. unfold F at 1. destruct acc as [kwa|]; [|discriminate].
        destruct (ea_kwarg (snd pe)) as [nm|]; [|intros E; inversion E; subst; apply Ha; reflexivity].
        rewrite Hsw. intros E. inversion E; subst. apply kw_insert_clean; [apply plain_get_result; exact Hst|apply Ha; reflexivity]. }
      destruct (fold_left F L (Some [])) as [kw0|] eqn:E; [|discriminate].
      intros H. inversion H; subst. eapply K; [|exact E]. intros kw0 E0. inversion E0; subst. reflexivity.
  Qed.

  Definition ta_rel (a b : mstate) : Prop := st_trace b = st_trace a /\ st_adddata b = st_adddata a.
  Lemma ta_trans a b c : ta_rel a b -> ta_rel b c -> ta_rel a c.
  Proof. intros [A1 A2] [B1 B2]. split; congruence. Qed.
  Lemma ta_refl a : ta_rel a a. Proof. split; reflexivity. Qed.
  Lemma ta_push_ready t st : ta_rel st (push_ready t st). Proof. split; reflexivity. Qed.
  Lemma ta_set_waiters w st : ta_rel st (set_waiters w st). Proof. split; reflexivity. Qed.
  Lemma ta_set_tstate t ts st : ta_rel st (set_tstate t ts st). Proof. split; reflexivity. Qed.
  Lemma ta_add_event n st : ta_rel st (add_event n st). Proof. split; reflexivity. Qed.

  Definition TA (st : mstate) : Prop := trace_clean st /\ st_adddata st = [].
  Lemma TA_rel a b : ta_rel a b -> TA a -> TA b.
  Proof. intros [A B] [C D]. unfold TA, trace_clean. rewrite A, B. auto. Qed.
  Lemma TA_finally_b d n st : TA st -> TA (finally_b P d n st).
  Proof. apply TA_rel, (R_finally_b P ta_rel ta_trans ta_push_ready ta_set_waiters ta_set_tstate ta_add_event), ta_refl. Qed.
  Lemma TA_cancel_tasks ts st : TA st -> TA (cancel_tasks ts st).
  Proof. apply TA_rel, (R_cancel_tasks ta_rel ta_trans ta_push_ready ta_set_waiters ta_set_tstate), ta_refl. Qed.
  Lemma TA_cancel_task t st : TA st -> TA (cancel_task t st).
  Proof. apply TA_rel, (R_cancel_task ta_rel ta_trans ta_push_ready ta_set_waiters ta_set_tstate), ta_refl. Qed.
  Lemma TA_wake_all w sg st : TA st -> TA (wake_all w sg st).
  Proof. apply TA_rel, (R_wake_all ta_rel ta_trans ta_push_ready ta_set_waiters ta_set_tstate), ta_refl. Qed.
  Lemma TA_emit o st : obs_clean o = true -> TA st -> TA (emit_obs o st).
  Proof. intros Ho [A B]. split; [|exact B]. unfold trace_clean, emit_obs. cbn. rewrite Ho. exact A. Qed.
  Lemma TA_spawn nm h k st : TA st -> TA (fst (spawn nm h k st)).
  Proof. intros [A B]. split; [|exact B]. unfold trace_clean. cbn. exact A. Qed.
  Lemma TA_set_tstate t ts st : TA st -> TA (set_tstate t ts st). Proof. auto. Qed.
  Lemma TA_push_ready t st : TA st -> TA (push_ready t st). Proof. auto. Qed.

  Lemma TA_run_effs l st : (forall o, In (EObs o) l -> obs_clean o = true) -> TA st -> TA (run_effs P l st).
  Proof.
    unfold run_effs. revert st. induction l as [|e r IH]; intros st Hc H; cbn [fold_left]; [exact H|].
    apply IH; [intros o Hin; apply Hc; right; exact Hin|].
    destruct e; cbn [run_eff]; try exact H.
    - apply TA_emit; [apply Hc; left; reflexivity|exact H].
    - apply TA_finally_b. exact H.
    - apply TA_cancel_tasks. exact H.
  Qed.

  Lemma plain_step_ta t fr sg st :
    plain_frame P fr = true -> clean_sig sg -> PS st -> kw_frame fr = true -> TA st -> TA (fst (step_frame P t fr sg st)).
  Proof.
    intros Hf Hs Hst Hk Hta. rewrite (step_plain P t fr sg st Hf Hs Hst). cbn [plain_step fst].
    destruct (fst (plain_act P fr sg st)) as [l|nm f] eqn:E; cbn [run_act]; [|apply TA_spawn; exact Hta].
    apply TA_run_effs; [|exact Hta]. revert E. cbn [kw_frame] in Hk.
    (* what a frame records carries the clean value it was resumed with, or the clean arguments it holds *)
    plain_cases fr sg Hf Hs; intros E o Hin; inversion E; subst; cbn [kw_frame] in Hk;
      repeat (destruct Hin as [Hin|Hin]; [try discriminate Hin; inversion Hin; subst; cbn [obs_clean]; try assumption; reflexivity|]);
      contradiction.
  Qed.

  Definition dir_kw (d : directive) : Prop :=
    match d with
    | DSuspend _ k' | DYield k' | DCont k' _ => kw_stack k' = true
    | DRet _ => True
    end.

  Lemma plain_step_kw t fr sg st :
    plain_frame P fr = true -> clean_sig sg -> PS st -> kw_frame fr = true -> st_adddata st = [] ->
    dir_kw (snd (step_frame P t fr sg st)).
  Proof.
    intros Hf Hs Hst Hk Had. rewrite (step_dir P t fr sg st Hf Hs Hst). unfold PS in Hst.
    cbn [kw_frame] in Hk. plain_cases fr sg Hf Hs; cbn [dir_kw]; try exact I;
      cbn [kw_stack forallb kw_frame emit_frames andb]; try reflexivity; try assumption;
      rewrite ?andb_true_r; try assumption;
      try (eapply node_kwargs_clean; eassumption).
  Qed.

  Lemma kw_TP_wake x w k : t_state x = TWait w k -> kw_TP x -> kw_TP (with_ts x (TReady k SGo)).
  Proof. unfold kw_TP. intros E H. rewrite E in H. exact H. Qed.
  Lemma kw_TP_cancel_ready x k sg : t_state x = TReady k sg -> kw_TP x -> kw_TP (with_ts x (TReady k (SThrow XCancelled))).
  Proof. unfold kw_TP. intros E H. rewrite E in H. exact H. Qed.
  Lemma kw_TP_cancel_wait x w k : t_state x = TWait w k -> kw_TP x -> kw_TP (with_ts x (TReady k (SThrow XCancelled))).
  Proof. unfold kw_TP. intros E H. rewrite E in H. exact H. Qed.
  Lemma kw_TP_spawn i nm h f : 1 <= i -> kw_frame f = true -> kw_TP {| t_id := i; t_name := nm; t_state := TReady [f] SGo; t_helper := h |}.
  Proof. intros _ Hf. unfold kw_TP. cbn. rewrite Hf. reflexivity. Qed.

  Lemma kw_launcher i : kw_TP {| t_id := i; t_name := TNRun; t_state := TReady [FDagStart (maind P)] SGo; t_helper := true |}.
  Proof. reflexivity. Qed.
  Lemma kw_node i n : kw_TP {| t_id := i; t_name := TNNode n; t_state := TReady [FNodeStart (maind P) n false] SGo; t_helper := true |}.
  Proof. reflexivity. Qed.

  Lemma exec_ta fuel t k sg st :
    PS st -> tasks_ok kw_TP st -> TA st -> plain_stack P k = true -> clean_sig sg -> kw_stack k = true ->
    tasks_ok kw_TP (exec P fuel t k sg st) /\ TA (exec P fuel t k sg st).
  Proof.
    intros H1 H3 H4 H5 H6 H7.
    apply (exec_rule P t (fun k sg s => PS s /\ tasks_ok kw_TP s /\ TA s /\ plain_stack P k = true /\ clean_sig sg
                                        /\ kw_stack k = true)
                     (fun s => tasks_ok kw_TP s /\ TA s)); [| |auto 10].
    - intros sg' s (A & C & D & _). split; [|exact D]. apply ok_set_tstate; [exact C|]. intros x _ _. exact I.
    - intros fr rest sg' s (A & C & D & E & F & K). split; [split; [apply ok_abort; [intros x k0 _; exact I|exact C]|exact D]|].
      cbn [plain_stack kw_stack forallb] in E, K. apply andb_true_iff in E. destruct E as [Ef Er]. apply andb_true_iff in K. destruct K as [Kf Kr].
      pose proof (plain_step_dir P Hbody t fr sg' s Ef F A) as Hd.
      pose proof (plain_step_store P t fr sg' s Ef F A) as Hs.
      pose proof (plain_step_tasks_gen P Hsw Hhd kw_TP kw_TP_wake kw_TP_cancel_ready kw_TP_cancel_wait kw_launcher kw_node t fr sg' s Ef F A C) as Htk.
      pose proof (plain_step_ta t fr sg' s Ef F A Kf D) as Hta.
      pose proof (plain_step_kw t fr sg' s Ef F A Kf (proj2 D)) as Hk.
      destruct (step_frame P t fr sg' s) as [st1 [w k'|k'|k' sg''|sg'']]; cbn [fst snd dir_plain dir_kw] in *.
      + split; [|exact Hta]. apply ok_suspend; [exact Htk|]. intros x _ _. unfold kw_TP, kw_stack. cbn. rewrite forallb_app. fold (kw_stack k'). rewrite Hk. exact Kr.
      + split; [|exact Hta]. apply ok_push_ready. apply ok_set_tstate; [exact Htk|]. intros x _ _. unfold kw_TP, kw_stack. cbn.
        rewrite forallb_app. fold (kw_stack k'). rewrite Hk. exact Kr.
      + destruct Hd as [Hpk Hsg]. unfold plain_stack, kw_stack in *. rewrite !forallb_app, Hpk, Hk. auto 10.
      + auto 10.
  Qed.

  Theorem reachable_trace_clean : forall st, reachable P st -> tasks_ok kw_TP st /\ TA st.
  Proof.
    intros st Hr.
    assert (K : (PS st /\ tasks_ok (plain_TP P) st) /\ tasks_ok kw_TP st /\ TA st); [|tauto].
    revert st Hr. apply (reachable_inv P (fun st => (PS st /\ tasks_ok (plain_TP P) st) /\ tasks_ok kw_TP st /\ TA st)).
    - split; [apply (reachable_plain P Hsw Hhd Hbody), reach_init|].
      split; [unfold tasks_ok, init_state; cbn; constructor; [reflexivity|constructor]|split; reflexivity].
    - intros st Hr [[A B] [C D]]. split; [apply (reachable_plain P Hsw Hhd Hbody); apply reach_step with (a := AStep); exact Hr|].
      apply (loop_step_rule P (fun s => tasks_ok kw_TP s /\ TA s)); [auto| |].
      + intros. split; [apply ok_dequeue; exact C|exact D].
      + intros t rest x k sg Hq Hf Ht. destruct (find_task_in _ _ _ Hf) as [Hin _].
        pose proof B as B'. pose proof C as C'. unfold tasks_ok in B', C'. rewrite Forall_forall in B', C'.
        pose proof (B' x Hin) as Hx. unfold plain_TP in Hx. rewrite Ht in Hx. destruct Hx as [Hk Hsg].
        pose proof (C' x Hin) as Hy. unfold kw_TP in Hy. rewrite Ht in Hy.
        apply exec_ta; [exact A|apply ok_dequeue; exact C|exact D|exact Hk|exact Hsg|exact Hy].
    - intros st g Hr [[A B] [C D]]. split; [apply (reachable_plain P Hsw Hhd Hbody); apply reach_step with (a := AGate g); exact Hr|].
      split; [apply (complete_gate_tasks_ok kw_TP kw_TP_wake); exact C|unfold complete_gate; apply TA_wake_all; exact D].
    - intros st Hr [[A B] [C D]]. split; [apply (reachable_plain P Hsw Hhd Hbody); apply reach_step with (a := ACancel); exact Hr|].
      split; [apply (ok_cancel_task kw_TP kw_TP_cancel_ready kw_TP_cancel_wait); exact C|apply TA_cancel_task; exact D].
  Qed.

  Corollary plain_values_in_flight st o :
    reachable P st -> In o (st_trace st) -> obs_clean o = true.
  Proof.
    intros Hr Hin. destruct (reachable_trace_clean st Hr) as [_ [Ht _]]. unfold trace_clean in Ht. rewrite forallb_forall in Ht. exact (Ht o Hin).
  Qed.
End TraceClean.

Definition graph_plain (g : graph) : bool := forallb (fun na => negb (na_switch (snd na)) && negb (na_head (snd na))) (g_nodes g).

Lemma graph_plain_sound g : graph_plain g = true -> (forall n, is_switch g n = false) /\ (forall n, is_head g n = false).
Proof.
  unfold graph_plain, is_switch, is_head, nattr_of. intros H.
  assert (K : forall n, match alookup key_eqb n (g_nodes g) with Some a => na_switch a = false /\ na_head a = false | None => True end).
  { intros n. induction (g_nodes g) as [|[k a] r IH]; cbn [alookup]; [exact I|].
    cbn [forallb snd] in H. apply andb_true_iff in H. destruct H as [H1 H2]. destruct (key_eqb n k); [|apply IH; exact H2].
    apply andb_true_iff in H1. destruct H1 as [A B]. apply negb_true_iff in A, B. auto. }
  split; intros n; specialize (K n); destruct (alookup key_eqb n (g_nodes g)); try reflexivity; tauto.
Qed.

Definition beh_plain (b : beh) : bool :=
  match b with BRecur _ | BRecEven _ => false | _ => true end.

Lemma dsl_body_clean bs : forallb (fun nb => beh_plain (nb_beh nb)) bs = true ->
  forall i kw a v, dsl_body bs i kw a = OVal v -> clean v = true.
Proof.
  intros H i kw a v. unfold dsl_body. destruct (nth_opt bs i) as [nb|] eqn:E; [|intros K; inversion K; reflexivity].
  assert (Hb : beh_plain (nb_beh nb) = true).
  { rewrite forallb_forall in H. apply H. clear H. revert i E. induction bs as [|b r IH]; intros i E; [destruct i; discriminate|].
    destruct i; cbn in E; [inversion E; left; reflexivity|right; eapply IH; exact E]. }
  destruct (fail_at (nb_fails nb) a); [discriminate|].
  destruct (nb_beh nb); try discriminate Hb; intros K; inversion K; reflexivity.
Qed.

(* no switch, no one-of, no body that asks for another iteration, ordinary input values *)
Definition plain_prog (P : prog) : Prop :=
  graph_plain (b_graph (build (p_decls P) (p_inp P) (p_out P))) = true /\
  (forall i kw a v, p_body P i kw a = OVal v -> clean v = true) /\
  kw_clean (p_input P) = true.

(* for a program of the behaviour DSL (Engine/Run.v) the three conditions are decidable *)
Lemma dsl_plain_prog P bs :
  p_body P = dsl_body bs -> forallb (fun nb => beh_plain (nb_beh nb)) bs = true ->
  graph_plain (b_graph (build (p_decls P) (p_inp P) (p_out P))) = true -> kw_clean (p_input P) = true -> plain_prog P.
Proof. intros Eb Hb Hg Hi. split; [exact Hg|]. split; [rewrite Eb; apply dsl_body_clean; exact Hb|exact Hi]. Qed.

Theorem plain_prog_values_in_flight P st o :
  plain_prog P -> reachable P st -> In o (st_trace st) -> obs_clean o = true.
Proof.
  intros (Hg & Hb & Hi). destruct (graph_plain_sound _ Hg) as [Hsw Hhd]. exact (plain_values_in_flight P Hsw Hhd Hb Hi st o).
Qed.

(* one concrete schedule, for non-vacuity examples: run to quiescence, complete the oldest pending gate, repeat *)
Fixpoint auto_run (P : prog) (fuel : nat) (st : mstate) : mstate :=
  match fuel with
  | O => st
  | S f => let st1 := apply_action P AQuiesce st in
           match pending_gates st1 with
           | [] => st1
           | g :: _ => auto_run P f (apply_action P (AGate g) st1)
           end
  end.
Lemma auto_run_reachable P fuel : forall st, reachable P st -> reachable P (auto_run P fuel st).
Proof.
  induction fuel as [|f IH]; intros st H; cbn [auto_run]; [exact H|].
  destruct (pending_gates (apply_action P AQuiesce st)) as [|g r]; [apply reach_step; exact H|].
  apply IH. apply reach_step. apply reach_step. exact H.
Qed.
