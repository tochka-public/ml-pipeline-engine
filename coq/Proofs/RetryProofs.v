(* C12: the retry loop equals its closed form, for every policy and every sequence of per-attempt outcomes. *)
From MLPE Require Import Pure.Retry Spec.Dataflow.

Section Retry.
  Variable nd : nspec.
  Variable o : nat -> outcome.

  (* what [stop_at] finds: the first attempt in [from, from + n) that is not retryable, else from + n *)
  Lemma stop_at_spec n from :
    from <= stop_at n nd o from <= from + n
    /\ (forall a, from <= a < stop_at n nd o from -> retryable nd (o a) = true)
    /\ (stop_at n nd o from < from + n -> retryable nd (o (stop_at n nd o from)) = false).
  Proof.
    revert from; induction n as [|n IH]; intros from; cbn [stop_at]; [repeat split; intros; lia|].
    destruct (retryable nd (o from)) eqn:E; [|repeat split; intros; first [lia|exact E]].
    destruct (IH (S from)) as [B [Hb Hs]]. split; [lia|]. split.
    - intros a Ha. destruct (Nat.eq_dec a from) as [->|Hne]; [exact E|apply Hb; lia].
    - intros H. apply Hs. lia.
  Qed.

  Lemma stop_at_before n from a :
    from <= a < stop_at n nd o from -> retryable nd (o a) = true.
  Proof. apply stop_at_spec. Qed.

  Lemma stop_at_stops n from :
    stop_at n nd o from < from + n -> retryable nd (o (stop_at n nd o from)) = false.
  Proof. apply stop_at_spec. Qed.

  Definition prefix_log (s n : nat) : list revent :=
    flat_map (fun a => [RBody a; REmitFail a (exc_of (o a)); RSleep (pol_delay nd)]) (seq s n).
  Definition default_tail (j : nat) : list revent :=
    match final_result nd (o j) j with RRDefault => [RDefault] | _ => [] end.

  (* the loop goes round again after a retryable exception, unless that was the last allowed attempt *)
  Definition again (att : nat) : bool := retryable nd (o att) && negb (Z.of_nat att =? pol_attempts nd)%Z.

  Lemma run_step f att :
    retry_run (S f) nd o att =
    if again att
    then let '(log, r) := retry_run f nd o (S att) in (RBody att :: REmitFail att (exc_of (o att)) :: RSleep (pol_delay nd) :: log, r)
    else ([RBody att] ++ default_tail att, Some (final_result nd (o att) att)).
  Proof.
    cbn [retry_run]. unfold again, default_tail, final_result, retryable, retry_decide. destruct (o att) as [v|c]; [reflexivity|].
    destruct (exc_matches c (pol_excs nd)); [destruct (Z.of_nat att =? pol_attempts nd)%Z|destruct (issub c EExc)];
      try destruct (ns_default nd); reflexivity.
  Qed.

  Lemma again_within n att :
    Z.of_nat (att + n) = pol_attempts nd -> again att = match n with O => false | S _ => retryable nd (o att) end.
  Proof.
    intros Ha. unfold again. destruct n.
    - rewrite (proj2 (Z.eqb_eq _ _)) by lia. apply andb_false_r.
    - rewrite (proj2 (Z.eqb_neq _ _)) by lia. apply andb_true_r.
  Qed.

  (* generalised closed form: n = number of further attempts the policy still allows after [att] *)
  Lemma retry_gen n att :
    Z.of_nat (att + n) = pol_attempts nd ->
    let j := stop_at n nd o att in
    retry_run (S n) nd o att = (prefix_log att (j - att) ++ [RBody j] ++ default_tail j, Some (final_result nd (o j) j)).
  Proof.
    revert att; induction n as [|n IH]; intros att Ha; cbn zeta; rewrite run_step, (again_within _ _ Ha); cbn [stop_at].
    - rewrite Nat.sub_diag. reflexivity.
    - destruct (retryable nd (o att)); [|rewrite Nat.sub_diag; reflexivity].
      rewrite (IH (S att)) by lia. pose proof (proj1 (stop_at_spec n (S att))).
      replace (stop_at n nd o (S att) - att) with (S (stop_at n nd o (S att) - S att)) by lia. reflexivity.
  Qed.

  (* C12, closed form: with a = attempts (>= 1) the loop invokes the body at attempts 1..j, where j is the first
     attempt that returns or raises a non-retryable exception, or a; between consecutive attempts it reports the
     failure and sleeps `delay` -- and nowhere else; the result is the value, or the default / the last exception. *)
  Theorem retry_closed_form :
    (1 <= pol_attempts nd)%Z ->
    let a := Z.to_nat (pol_attempts nd) in
    let j := stop_at (a - 1) nd o 1 in
    retry_run a nd o 1 = (closed_log nd o j, Some (final_result nd (o j) j)).
  Proof.
    intros Ha a j. subst a j.
    remember (Z.to_nat (pol_attempts nd)) as a eqn:Ea.
    destruct a as [|a]; [lia|].
    replace (S a - 1) with a by lia.
    rewrite (retry_gen a 1) by lia. reflexivity.
  Qed.

  (* the loop never runs out of fuel and never invokes the body more than `attempts` times *)
  Corollary retry_terminates :
    (1 <= pol_attempts nd)%Z ->
    exists log r, retry_run (Z.to_nat (pol_attempts nd)) nd o 1 = (log, Some r).
  Proof. intros H. rewrite (retry_closed_form H). eauto. Qed.

  Lemma stop_bounds :
    (1 <= pol_attempts nd)%Z ->
    let j := stop_at (Z.to_nat (pol_attempts nd) - 1) nd o 1 in
    1 <= j /\ (Z.of_nat j <= pol_attempts nd)%Z.
  Proof.
    intros H j. pose proof (proj1 (stop_at_spec (Z.to_nat (pol_attempts nd) - 1) 1)). lia.
  Qed.

  Definition bodies (l : list revent) : list nat := flat_map (fun e => match e with RBody a => [a] | _ => [] end) l.
  Definition sleeps (l : list revent) : list nat := flat_map (fun e => match e with RSleep d => [d] | _ => [] end) l.

  Lemma closed_log_split j : closed_log nd o j = prefix_log 1 (j - 1) ++ [RBody j] ++ default_tail j.
  Proof. reflexivity. Qed.

  Lemma bodies_prefix s n : bodies (prefix_log s n) = seq s n.
  Proof. revert s; induction n as [|n IH]; intros s; [reflexivity|]. cbn. f_equal. apply IH. Qed.
  Lemma sleeps_prefix s n : sleeps (prefix_log s n) = repeat (pol_delay nd) n.
  Proof. revert s; induction n as [|n IH]; intros s; [reflexivity|]. cbn. f_equal. apply IH. Qed.
  Lemma bodies_tail j : bodies (default_tail j) = [].
  Proof. unfold default_tail. destruct (final_result nd (o j) j); reflexivity. Qed.
  Lemma sleeps_tail j : sleeps (default_tail j) = [].
  Proof. unfold default_tail. destruct (final_result nd (o j) j); reflexivity. Qed.

  Lemma bodies_closed j : 1 <= j -> bodies (closed_log nd o j) = seq 1 j.
  Proof.
    intros Hj. rewrite closed_log_split. unfold bodies at 1. rewrite !flat_map_app.
    fold (bodies (prefix_log 1 (j - 1))). fold (bodies (default_tail j)).
    rewrite bodies_prefix, bodies_tail. cbn. rewrite ?app_nil_r.
    destruct j as [|j']; [lia|]. replace (S j' - 1) with j' by lia. rewrite seq_S. reflexivity.
  Qed.

  Lemma sleeps_closed j : sleeps (closed_log nd o j) = repeat (pol_delay nd) (j - 1).
  Proof.
    rewrite closed_log_split. unfold sleeps at 1. rewrite !flat_map_app.
    fold (sleeps (prefix_log 1 (j - 1))). fold (sleeps (default_tail j)).
    rewrite sleeps_prefix, sleeps_tail. cbn. rewrite ?app_nil_r. reflexivity.
  Qed.
End Retry.

(* outside the property's domain: with a negative `attempts` the equality test never succeeds and a body that keeps
   raising a retryable exception is invoked for ever (the model runs out of any fuel) *)
Lemma negative_attempts_diverge nd fuel :
  (pol_attempts nd < 0)%Z -> exc_matches EA (pol_excs nd) = true ->
  snd (retry_run fuel nd (fun _ => ORaise EA) 1) = None.
Proof.
  intros Hneg Hm. generalize 1 at 1. induction fuel as [|f IH]; intros att; simpl; [reflexivity|].
  unfold retry_decide. rewrite Hm.
  destruct (Z.eqb_spec (Z.of_nat att) (pol_attempts nd)); [lia|].
  specialize (IH (S att)). destruct (retry_run f nd (fun _ => ORaise EA) (S att)). simpl in *. exact IH.
Qed.

(* the engine's loop computes what the reference semantics (Spec/Dataflow.v: retry_eval) prescribes *)
Section VsReference.
  Variable ds : decls.
  Variable body : nat -> kwargs -> nat -> outcome.
  Variable i : nat.
  Variable kw : kwargs.
  Let nd := spec_of ds i.
  Let o (a : nat) : outcome := body i kw (Nat.pred a).      (* the engine counts attempts from 1 *)

  Definition res_of (r : rresult) : res * bool :=
    match r with
    | RRVal v => (ROk v, false)
    | RRDefault => (ROk (VDef i kw), true)
    | RRRaise c att => (RFail [CNode c i (Nat.pred att)], false)
    end.

  Lemma r_attempts_eq : r_attempts nd = pol_attempts nd. Proof. reflexivity. Qed.
  Lemma r_excs_eq : r_excs nd = pol_excs nd. Proof. reflexivity. Qed.

  Definition verdict (j : nat) : res * nat * bool :=
    (fst (res_of (final_result nd (o j) j)), j, snd (res_of (final_result nd (o j) j))).

  Lemma eval_step f att0 :
    retry_eval ds body (S f) i kw att0 = if again nd o (S att0) then retry_eval ds body f i kw (S att0) else verdict (S att0).
  Proof.
    cbn [retry_eval]. unfold again, verdict, final_result, retryable, exc_matches, o. cbn [Nat.pred].
    change (spec_of ds i) with nd. rewrite r_excs_eq, r_attempts_eq.
    destruct (body i kw att0) as [v|c]; [reflexivity|].
    destruct (existsb (issub c) (pol_excs nd)); [destruct (Z.of_nat (S att0) =? pol_attempts nd)%Z|destruct (issub c EExc)];
      try destruct (ns_default nd); reflexivity.
  Qed.

  Lemma eval_gen n att0 :
    Z.of_nat (S att0 + n) = pol_attempts nd -> retry_eval ds body (S n) i kw att0 = verdict (stop_at n nd o (S att0)).
  Proof.
    revert att0; induction n as [|n IH]; intros att0 Ha; rewrite eval_step, (again_within nd o _ _ Ha); cbn [stop_at]; [reflexivity|].
    destruct (retryable nd (o (S att0))); [|reflexivity]. apply (IH (S att0)). lia.
  Qed.

  (* the result, the number of body invocations and the use of the default coincide *)
  Theorem engine_retry_refines_reference :
    (1 <= pol_attempts nd)%Z ->
    let a := Z.to_nat (pol_attempts nd) in
    let j := stop_at (a - 1) nd o 1 in
    retry_run a nd o 1 = (closed_log nd o j, Some (final_result nd (o j) j))
    /\ retry_eval ds body a i kw 0 =
       (fst (res_of (final_result nd (o j) j)), j, snd (res_of (final_result nd (o j) j))).
  Proof.
    intros Ha a j. split; [apply retry_closed_form; exact Ha|].
    subst a j. remember (Z.to_nat (pol_attempts nd)) as a eqn:Ea. destruct a as [|a]; [lia|].
    replace (S a - 1) with a by lia. apply eval_gen. lia.
  Qed.
End VsReference.
