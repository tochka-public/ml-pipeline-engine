(* C17 (fail fast): if a mode in use needs a pool that is not registered / has been shut down, no task is ever created
   and no node-level activity ever happens -- for every program and every schedule. *)
From MLPE Require Import Engine.Run Proofs.ExecLemmas Proofs.Evolve Proofs.StackInv.

Definition pool_blocked (P : prog) : bool :=
  (needs_thread P && negb (p_thread_ready P)) || (needs_process P && negb (p_process_ready P)).

(* observations that are not about any node: the two pipeline events and the ghost events *)
Definition node_free (o : obs) : bool :=
  match o with
  | OEmit _ EvPipelineStart None _ _ | OEmit _ EvPipelineComplete None _ _ => true
  | OSpawn _ _ | ORunDone _ => true
  | _ => false
  end.

Definition calm (st st' : mstate) : Prop := st_next st' = st_next st /\ grows (fun o => node_free o = true) st st'.

Lemma calm_trans a b c : calm a b -> calm b c -> calm a c.
Proof. intros [N1 G1] [N2 G2]. split; [congruence|exact (grows_trans _ _ _ _ G1 G2)]. Qed.
Lemma calm_same st st' :
  st_store st' = st_store st -> st_adddata st' = st_adddata st -> st_trace st' = st_trace st -> st_next st' = st_next st -> calm st st'.
Proof. intros S A T N. split; [exact N|apply grows_same; assumption]. Qed.
Lemma c_emit o st : node_free o = true -> calm st (emit_obs o st).
Proof. intros H. split; [reflexivity|apply grows_emit, H]. Qed.

Ltac calm_prims := inert_prims calm_trans calm_same ltac:(apply c_emit; reflexivity).

Section Modes.
  Variable P : prog.
  Hypothesis Hblocked : pool_blocked P = true.

  Lemma main_step_calm t fr sg st : main_frame fr = true -> calm st (fst (step_frame P t fr sg st)).
  Proof.
    intros Hm. unfold pool_blocked in Hblocked.
    destruct fr; try discriminate Hm; cbn [main_frame] in Hm; destruct sg; cbn [step_frame]; rewrite ?Hblocked;
      repeat match goal with Hx : context [match ?x with _ => _ end] |- _ => destruct x; try discriminate Hx end;
      repeat break_match; cbn [fst]; calm_prims.
  Qed.

  Definition blocked_ok (st : mstate) : Prop := st_next st = 1 /\ forallb node_free (st_trace st) = true.

  Lemma calm_blocked st st' : blocked_ok st -> calm st st' -> blocked_ok st'.
  Proof.
    intros [N F] [N' [new [T Fn]]]. split; [congruence|]. rewrite T, forallb_app, F, andb_true_r. apply forallb_forall, Fn.
  Qed.

  Lemma exec_main_calm fuel t k sg st : main_stack k = true -> chainb k = true -> calm st (exec P fuel t k sg st).
  Proof.
    intros Hm Hc.
    apply (exec_rule P t (fun k _ s => calm st s /\ main_stack k = true /\ chainb k = true) (calm st)); [| |auto using (I_refl _ calm_same)].
    - intros sg' s [H _]. eapply calm_trans; [exact H|apply (I_set_tstate _ calm_same)].
    - intros fr rest sg' s [H [Hms Hch]]. split; [eapply calm_trans; [exact H|apply (I_abort _ _ calm_same)]|].
      assert (Hf : main_frame fr = true) by (unfold main_stack in Hms; cbn [forallb] in Hms; apply andb_true_iff in Hms; apply Hms).
      pose proof (main_step_calm t fr sg' s Hf) as Hstep. pose proof (step_frame_dir_ok P t fr sg' s) as Hd.
      destruct (step_frame P t fr sg' s) as [st1 [w k'|k'|k' sg''|sg'']]; cbn [fst snd dir_ok] in *.
      + apply (I_suspend _ calm_trans calm_same). eapply calm_trans; eassumption.
      + eapply calm_trans; [|apply (I_push_ready _ calm_same)]. eapply calm_trans; [|apply (I_set_tstate _ calm_same)]. eapply calm_trans; eassumption.
      + destruct (seg_ok_app fr rest k' Hch Hms Hd) as [A B]. split; [eapply calm_trans; eassumption|auto].
      + split; [eapply calm_trans; eassumption|]. split; [apply (main_stack_tail fr); exact Hms|apply (chainb_tail fr); exact Hch].
  Qed.

  Theorem blocked_run_is_calm : forall st, reachable P st -> blocked_ok st.
  Proof.
    apply (reachable_inv P blocked_ok).
    - split; reflexivity.
    - intros st Hr H. pose proof (reachable_stacks_ok P st Hr) as Hs.
      apply (loop_step_rule P blocked_ok); [auto| |].
      + intros. apply (calm_blocked st); [exact H|apply (I_dequeue _ calm_same)].
      + intros t rest x k sg Hq Hf Ht. destruct (find_task_in _ _ _ Hf) as [Hin Hid].
        pose proof (reachable_ids P st x Hr Hin) as Hlt. destruct H as [N F]. rewrite N in Hlt.
        assert (Et : t = main_tid) by (unfold main_tid; lia). rewrite Et in *.
        destruct (tasks_ok_in _ _ _ Hs Hin) as [_ Hx]. rewrite Ht in Hx.
        destruct Hx as [[_ [Hc Hm]] _].
        apply (calm_blocked st); [split; assumption|]. eapply calm_trans; [apply (I_dequeue _ calm_same)|]. apply exec_main_calm; [apply Hm; exact Hid|exact Hc].
    - intros st g _ H. apply (calm_blocked st); [exact H|]. unfold complete_gate. apply (I_wake_all _ calm_trans calm_same), (I_refl _ calm_same).
    - intros st _ H. apply (calm_blocked st); [exact H|]. apply (I_cancel_task _ calm_trans calm_same), (I_refl _ calm_same).
  Qed.
End Modes.
