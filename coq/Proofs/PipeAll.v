(* The chart task of any program: a frame of PipelineChart.run that waits is resumed by a wake-up (SGo) only where it expects
   one; the frames and the shapes `mk` of the chart task's stack are those of Proofs/PlainPipe.v, where the two pipeline-level
   events are treated for all programs. *)
From MLPE Require Import Engine.Run Proofs.PlainExec Proofs.PlainPipe.

Section AllPrograms.
  Variable P : prog.

  Definition typed_ts (ts : tstate frame) : Prop :=
    match ts with
    | TReady (f :: _) sg => handled f sg = true
    | TWait _ (f :: _) => handled f SGo = true
    | _ => True
    end.

  Lemma handled_go_of_wait js jc pay w k : mk P js jc pay k None -> typed_ts (TWait w k) -> typed_ts (TReady k SGo).
  Proof. intros _ H. destruct k; exact H. Qed.
End AllPrograms.
