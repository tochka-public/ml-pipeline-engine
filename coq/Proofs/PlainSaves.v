(* Plain programs, every schedule, while manager.run is pending: what is handed to the artifact store.
   - a node is handed to the store at most once;
   - what is handed over is the node's stored result -- the value its consumers receive -- and that result is final;
   - every node that has a result has been handed to the store (when a store is configured), in the same loop step. *)
From MLPE Require Import Engine.Run Proofs.ExecLemmas Proofs.PlainWorld Proofs.PlainStep Proofs.PlainLaunch Proofs.PlainLive Proofs.Micro Proofs.PlainBase Proofs.PlainCore Proofs.PlainInv Proofs.StackAll Proofs.PlainRoles Proofs.PlainExec Proofs.PlainTasks Proofs.PlainArgs.

Definition is_save_of (m : key) (o : obs) : bool := match o with OSave n _ => key_eqb n m | _ => false end.
Definition count_saves (m : key) (tr : list obs) : nat := length (filter (is_save_of m) tr).
Definition pending_save (f : frame) : option (key * value) := match f with FSave n v false _ => Some (n, v) | _ => None end.
Definition no_pending (k : list frame) : bool := forallb (fun f => match pending_save f with None => true | Some _ => false end) k.
Definition pending_top (k : list frame) : option (key * value) := match k with f :: _ => pending_save f | [] => None end.

Lemma count_saves_cons m o tr : count_saves m (o :: tr) = (if is_save_of m o then 1 else 0) + count_saves m tr.
Proof. unfold count_saves. cbn [filter]. destruct (is_save_of m o); reflexivity. Qed.

Lemma count_saves_zero m tr : (forall v, ~ In (OSave m v) tr) -> count_saves m tr = 0.
Proof.
  unfold count_saves. induction tr as [|o r IH]; intros H; [reflexivity|]. cbn [filter].
  destruct (is_save_of m o) eqn:E.
  - exfalso. destruct o; try discriminate E. cbn in E. apply key_eqb_spec in E. subst n. apply (H v). left. reflexivity.
  - apply IH. intros v Hin. apply (H v). right. exact Hin.
Qed.

Lemma no_pending_app a b : no_pending (a ++ b) = no_pending a && no_pending b.
Proof. unfold no_pending. apply forallb_app. Qed.
Lemma no_pending_tl k : no_pending k = true -> no_pending (tl k) = true.
Proof. destruct k as [|f r]; [auto|]. unfold no_pending. cbn [forallb tl]. intros H. apply andb_true_iff in H. apply H. Qed.
Lemma no_pending_top k : no_pending k = true -> pending_top k = None.
Proof. destruct k as [|f r]; [reflexivity|]. unfold no_pending. cbn [forallb pending_top]. destruct (pending_save f); [discriminate|reflexivity]. Qed.

Section SaveSteps.
  Variable P : prog.

  Lemma plain_step_osave t fr sg st :
    plain_frame P fr = true -> clean_sig sg -> PS st ->
    (forall n v, In (OSave n v) (st_trace (fst (step_frame P t fr sg st))) ->
                 In (OSave n v) (st_trace st) \/ exists k, fr = FSave n v false k /\ sg = SGo) /\
    (forall m, count_saves m (st_trace (fst (step_frame P t fr sg st))) = count_saves m (st_trace st) \/
               count_saves m (st_trace (fst (step_frame P t fr sg st))) = S (count_saves m (st_trace st)) /\
               exists v k, fr = FSave m v false k /\ sg = SGo).
  Proof.
    intros Hf Hs Hst. destruct (plain_step_records P t fr sg st Hf Hs Hst) as [->|[o [-> Ho]]]; [split; auto|]. split.
    - intros n v [Hx|Hin]; [|left; exact Hin]. subst o. inversion Ho; subst. right. eauto.
    - intros m. rewrite count_saves_cons. destruct (is_save_of m o) eqn:E; [|left; reflexivity]. right. split; [reflexivity|].
      destruct Ho; try discriminate E. cbn in E. apply key_eqb_spec in E. subst n. eauto.
  Qed.

  Lemma plain_step_saves t n v k st :
    p_store P <> StNone -> st_trace (fst (step_frame P t (FSave n v false k) SGo st)) = OSave n v :: st_trace st.
  Proof. intros Hsto. cbn [step_frame]. destruct (p_store P); [contradiction| |]; destruct (p_store_gated P); reflexivity. Qed.

  (* the frame that is about to call the store is pushed only where _run_node has just stored the result *)
  Lemma plain_step_pending_save t fr sg st f n v :
    In f (dir_frames (snd (step_frame P t fr sg st))) -> pending_save f = Some (n, v) ->
    exists d0, fr = FNodeAfterExec d0 n /\ sg = SVal v.
  Proof.
    intros Hin Hr. destruct (step_pushed P t fr sg st f Hin) as [k' [Hp Hf]].
    destruct Hp; cbn [In] in Hf; repeat (destruct Hf as [<-|Hf]); try contradiction; try discriminate Hr. inversion Hr; subst. eauto.
  Qed.

  Lemma plain_step_pending_top t fr sg st : no_pending (tl (dir_frames (snd (step_frame P t fr sg st)))) = true.
  Proof. destruct (step_pushes P t fr sg st) as [[s' ->]|Hp]; [reflexivity|]. destruct Hp; reflexivity. Qed.
  Lemma plain_step_pending_rest t fr sg st :
    plain_frame P fr = true -> clean_sig sg -> PS st ->
    forall k', (exists w, snd (step_frame P t fr sg st) = DSuspend w k') \/ snd (step_frame P t fr sg st) = DYield k' -> no_pending k' = true.
  Proof.
    intros Hf Hs Hst. rewrite (step_dir P t fr sg st Hf Hs Hst).
    plain_cases fr sg Hf Hs; cbn [snd]; intros k' [[w H]|H]; try discriminate H; inversion H; subst; reflexivity.
  Qed.
End SaveSteps.

Section SaveInv.
  Variable P : prog.
  Notation G := (b_graph (build (p_decls P) (p_inp P) (p_out P))).
  Hypothesis Hsw : forall n, is_switch G n = false.
  Hypothesis Hhd : forall n, is_head G n = false.
  Hypothesis Hbody : forall i kw a v, p_body P i kw a = OVal v -> clean v = true.
  Notation order := (p_order P (maind P)).
  Hypothesis Hnd : NoDup order.

  (* a frame about to call the store is never at rest: it exists only inside the loop step that pushed it *)
  Definition np_TP (x : task frame) : Prop := no_pending (estack (t_state x)) = true.
  Definition np_cur (c : running) : Prop := match c with Some (_, k, _) => no_pending (tl k) = true | None => True end.

  Lemma np_wake x w k : t_state x = TWait w k -> np_TP x -> np_TP (with_ts x (TReady k SGo)).
  Proof. unfold np_TP. intros E H. rewrite E in H. exact H. Qed.
  Lemma np_cancel_ready x k sg : t_state x = TReady k sg -> np_TP x -> np_TP (with_ts x (TReady k (SThrow XCancelled))).
  Proof. unfold np_TP. intros E H. rewrite E in H. exact H. Qed.
  Lemma np_cancel_wait x w k : t_state x = TWait w k -> np_TP x -> np_TP (with_ts x (TReady k (SThrow XCancelled))).
  Proof. unfold np_TP. intros E H. rewrite E in H. exact H. Qed.

  Theorem creach_nopending : forall st c, creach P st c -> tasks_ok np_TP st /\ np_cur c.
  Proof.
    intros st c H.
    induction H as [|st t rest x k sg H IH Hq Hf Ht|st t rest H IH Hq|st t fr rest sg H IH|st t sg H IH|st c H IH|st g H IH|st H IH].
    - split; [|exact I]. unfold tasks_ok, init_state. cbn. constructor; [reflexivity|constructor].
    - destruct IH as [A _]. split; [apply ok_dequeue; exact A|].
      destruct (find_task_in _ _ _ Hf) as [Hin _]. unfold tasks_ok in A. rewrite Forall_forall in A. specialize (A x Hin). unfold np_TP in A. rewrite Ht in A.
      apply no_pending_tl. exact A.
    - destruct IH as [A _]. split; [apply ok_dequeue; exact A|exact I].
    - pose proof (creach_base P Hsw Hhd Hbody _ _ H) as Hb. destruct IH as [A B]. cbn [np_cur tl] in B.
      destruct (base_running P _ _ _ _ _ Hb) as (x0 & _ & _ & _ & Kf & _ & Hs & _).
      pose proof (plain_step_pending_top P t fr sg st) as Htop.
      pose proof (plain_step_pending_rest P t fr sg st Kf Hs (b_ps _ _ _ Hb)) as Hrest.
      assert (A1 : tasks_ok np_TP (fst (step_frame P t fr sg st))).
      { apply (plain_step_tasks_gen P Hsw Hhd np_TP np_wake np_cancel_ready np_cancel_wait); try assumption; [| |exact (b_ps _ _ _ Hb)]; intros; reflexivity. }
      destruct (step_frame P t fr sg st) as [st1 [w k'|k'|k' sg'|sg']]; cbn [after_step fst snd np_cur dir_frames] in *.
      + split; [|exact I]. apply ok_suspend; [exact A1|]. intros y _ _. unfold np_TP. cbn. rewrite no_pending_app, (Hrest k' (or_introl (ex_intro _ w eq_refl))), B. reflexivity.
      + split; [|exact I]. apply ok_push_ready. apply ok_set_tstate; [exact A1|]. intros y _ _. unfold np_TP. cbn. rewrite no_pending_app, (Hrest k' (or_intror eq_refl)), B. reflexivity.
      + split; [exact A1|]. destruct k' as [|f1 k'']; cbn [app tl]; [apply no_pending_tl; exact B|]. cbn [tl] in Htop. rewrite no_pending_app, Htop, B. reflexivity.
      + split; [exact A1|]. apply no_pending_tl. exact B.
    - destruct IH as [A _]. split; [|exact I]. apply ok_set_tstate; [exact A|]. intros y _ _. reflexivity.
    - destruct IH as [A _]. split; [|exact I]. apply ok_abort; [|exact A]. intros y k0 _. reflexivity.
    - destruct IH as [A _]. split; [|exact I]. apply (complete_gate_tasks_ok np_TP np_wake). exact A.
    - destruct IH as [A _]. split; [|exact I]. apply (ok_cancel_task np_TP np_cancel_ready np_cancel_wait). exact A.
  Qed.

  (* the task of node m: a frame about to call the store, on top of its stack, is resumed with SGo and holds the stored result of
     m, which has not been handed over yet; and a result that exists has been handed over unless that frame is on top *)
  Definition PhiS (st : mstate) : idt -> tstate frame -> Prop :=
    on_node (fun m ts =>
      (forall n v, pending_top (estack ts) = Some (n, v) ->
         n = m /\ get_result m true (st_store st) = v /\ exists_result m (st_store st) = true /\ count_saves m (st_trace st) = 0 /\
         forall s, sig_of ts = Some s -> s = SGo) /\
      (exists_result m (st_store st) = true -> p_store P <> StNone ->
         count_saves m (st_trace st) = 1 \/ pending_top (estack ts) = Some (m, get_result m true (st_store st)))).

  Definition globS (st : mstate) : Prop :=
    (forall n v, In (OSave n v) (st_trace st) -> exists_result n (st_store st) = true /\ get_result n true (st_store st) = v) /\
    (forall m, count_saves m (st_trace st) <= 1).

  Definition savesI (st : mstate) (c : running) : Prop := guard st \/ (globS st /\ allT (PhiS st) st c).

  Lemma PhiS_wake st : wake_closed (PhiS st).
  Proof.
    intros i w k H m Hm. destruct (H m Hm) as (A & C). split; [|exact C].
    intros n v Hp. destruct (A n v Hp) as (A1 & A2 & A3 & A4 & _). repeat split; auto. intros s Hs. inversion Hs. reflexivity.
  Qed.
  Lemma PhiS_ext a b i ts : same_core a b -> PhiS a i ts -> PhiS b i ts.
  Proof. unfold PhiS. intros (-> & _ & -> & _). auto. Qed.
  Lemma globS_ext a b : same_core a b -> globS a -> globS b.
  Proof. unfold globS. intros (-> & _ & -> & _). auto. Qed.

  Lemma savesA_step st t fr rest sg :
    base P st (Some (t, fr :: rest, sg)) -> no_pending rest = true ->
    allT (PhiR P st) st (Some (t, fr :: rest, sg)) ->
    NoDup (node_names (fst (step_frame P t fr sg st))) ->
    globA P st -> allT (PhiA P st) st (Some (t, fr :: rest, sg)) ->
    globS st -> allT (PhiS st) st (Some (t, fr :: rest, sg)) ->
    leaves_run fr sg (snd (step_frame P t fr sg st)) = false ->
    globS (fst (step_frame P t fr sg st)) /\
    allT (PhiS (fst (step_frame P t fr sg st)))
         (fst (after_step t rest (step_frame P t fr sg st))) (snd (after_step t rest (step_frame P t fr sg st))).
  Proof.
    intros Hb Hnp HA Hnd1 (_ & A1 & _) HAa (S1 & S2) HS Hlr.
    destruct (base_running P _ _ _ _ _ Hb) as (x0 & Hf0 & Hin0 & Hid0 & Kf & Kr & Hs & Of & Or & Hc).
    pose proof (b_ps _ _ _ Hb) as Hps.
    destruct (results_final_step P st t fr rest sg Hb HAa) as (F12 & Hsto & F3).
    destruct (plain_step_osave P t fr sg st Kf Hs Hps) as [Tin Tc].
    (* the frame that calls the store runs in the task of its node: resumed with SGo, for the stored result, not handed over yet *)
    assert (Hsave : forall n v k, fr = FSave n v false k ->
                      sg = SGo /\ get_result n true (st_store st) = v /\ exists_result n (st_store st) = true /\ count_saves n (st_trace st) = 0).
    { intros n v k ->. destruct (allT_run _ _ _ _ _ _ x0 HS Hin0 Hid0 n (owner_fsave _ _ _ _ _ Of)) as [W1 _].
      destruct (W1 n v eq_refl) as (_ & Wv & Wr & Wc & Wsg). split; [exact (Wsg sg eq_refl)|auto]. }
    split.
    - split.
      + intros n v Hin. assert (Hold : exists_result n (st_store st) = true /\ get_result n true (st_store st) = v).
        { destruct (Tin n v Hin) as [Hold|[k [Efr _]]]; [exact (S1 n v Hold)|]. destruct (Hsave n v k Efr) as (_ & Hv & Hr & _). auto. }
        destruct Hold as [Hr Hv]. destruct (F12 n Hr) as [Hr1 Hv1]. split; [exact Hr1|rewrite Hv1; exact Hv].
      + intros m. destruct (Tc m) as [->|[-> [v [k [Efr _]]]]]; [apply S2|]. destruct (Hsave m v k Efr) as (_ & _ & _ & ->). constructor.
    - apply (allT_node_step P Hsw Hhd _ _ st t fr rest sg Hb Hnd1 Hlr HS (PhiS_wake st)).
      +
        intros m Hm. destruct (creates_node P Hnd st t fr rest sg m Hb HA Hm) as (_ & Hnot & _). split.
        * intros n v Hp. discriminate Hp.
        * intros Hr _. destruct (Hnot (A1 m Hr)).
      + (* the tasks of the other nodes: the store is not called for them, no result of theirs appears *)
        intros nm m ts Onm _ Hne _ (B1 & B3).
        assert (Hcnt : count_saves m (st_trace (fst (step_frame P t fr sg st))) = count_saves m (st_trace st)).
        { destruct (Tc m) as [E|[_ [v [k [Efr _]]]]]; [exact E|]. subst fr. destruct (Hne (owner_fsave _ _ _ _ _ Onm)). }
        rewrite Hcnt, (other_node_result P t fr sg st nm m Kf Hs Hps Onm Hne). split.
        * intros n v Hp. destruct (B1 n v Hp) as (E1 & E2 & E3 & E4). destruct (F12 m E3) as [_ ->]. auto.
        * intros Hr Hst. destruct (F12 m Hr) as [_ ->]. exact (B3 Hr Hst).
      +
        intros m Om _ Hm. destruct (Hm _ HS) as (_ & W3). split.
        * (* a frame about to call the store, on top of the new stack, is the one just pushed after storing the result *)
          intros n v Hp. rewrite estack_nstate in Hp.
          destruct (dir_frames (snd (step_frame P t fr sg st))) as [|f1 k''] eqn:Ed; cbn [app pending_top] in Hp.
          -- rewrite (no_pending_top rest Hnp) in Hp. discriminate Hp.
          -- destruct (plain_step_pending_save P t fr sg st f1 n v ltac:(rewrite Ed; left; reflexivity) Hp) as [d0 [-> ->]].
             pose proof (owner_frame_key _ _ _ Om eq_refl) as En. inversion En; subst n.
             destruct (Hsto _ m v eq_refl eq_refl) as (_ & Hr0 & Hr1 & Hv & Hd). split; [reflexivity|]. split; [exact Hv|]. split; [exact Hr1|]. split.
             ++ destruct (Tc m) as [->|[_ [v' [k [Efr _]]]]]; [|discriminate Efr].
                apply count_saves_zero. intros v' Hin. destruct (S1 m v' Hin) as [Hr _]. rewrite Hr0 in Hr. discriminate Hr.
             ++ intros s Hsg. rewrite Hd in Hsg. inversion Hsg. reflexivity.
        * intros Hr Hst. destruct (exists_result m (st_store st)) eqn:Er.
          -- left. destruct (W3 eq_refl Hst) as [Hc1|Hp].
             ++ (* handed over before: not again, since the frame that calls the store runs only before that *)
                destruct (Tc m) as [->|[_ [v [k [Efr _]]]]]; [exact Hc1|]. destruct (Hsave m v k Efr) as (_ & _ & _ & Hc0). rewrite Hc0 in Hc1. discriminate Hc1.
             ++ (* the frame that calls the store is on top: this step does *)
                cbn [estack pending_top] in Hp. destruct fr; try discriminate Hp. destruct resumed; try discriminate Hp.
                destruct (Hsave _ _ _ eq_refl) as (-> & _ & _ & Hc0). inversion Hp; subst n.
                rewrite (plain_step_saves P t m _ k st Hst), count_saves_cons, Hc0. cbn [is_save_of]. rewrite key_eqb_refl. reflexivity.
          -- (* the result is stored by this very step, which pushes the frame that calls the store *)
             right. destruct (F3 m Hr Er) as [d [v [-> ->]]]. destruct (Hsto _ m v eq_refl eq_refl) as (_ & _ & _ & -> & ->). reflexivity.
  Qed.

  Theorem creach_saves : forall st c, creach P st c -> savesI st c.
  Proof.
    apply (creach_guarded P Hsw Hhd Hbody globS PhiS globS_ext PhiS_ext PhiS_wake).
    - intros st k s _ m Hm. discriminate Hm.
    - intros st w k _ m Hm. discriminate Hm.
    - split; [intros n v [Hx|[]]; discriminate Hx|intros m; cbn; lia].
    - intros m Hm. discriminate Hm.
    - intros st t fr rest sg H Hg0 Hg1 Hlr GS HS.
      destruct (unguard _ _ (creach_roles P Hsw Hhd Hbody _ _ H) Hg0) as [_ HA].
      destruct (unguard _ _ (creach_args P Hsw Hhd Hbody Hnd _ _ H) Hg0) as [GA HAa].
      destruct (creach_nopending _ _ H) as [_ Hnp].
      exact (savesA_step st t fr rest sg (creach_base P Hsw Hhd Hbody _ _ H) Hnp HA (nodup_next P Hsw Hhd Hbody Hnd st t fr rest sg H Hg1) GA HAa GS HS Hlr).
  Qed.
End SaveInv.

Theorem plain_saves P :
  plain_prog P -> NoDup (p_order P (maind P)) ->
  forall st, reachable P st -> over st = false -> main_done st = false ->
    (forall m, count_saves m (st_trace st) <= 1) /\
    (forall n v, In (OSave n v) (st_trace st) -> exists_result n (st_store st) = true /\ get_result n true (st_store st) = v) /\
    (p_store P <> StNone -> forall m, exists_result m (st_store st) = true -> count_saves m (st_trace st) = 1).
Proof.
  intros (Hg & Hb & _) Hnd st Hr Ho Hm. destruct (graph_plain_sound _ Hg) as [Hsw Hhd].
  pose proof (reachable_creach P st Hr) as Hc.
  destruct (creach_saves P Hsw Hhd Hb Hnd st None Hc) as [[Hg'|Hg']|[(S1 & S2) HS]]; [congruence|congruence|].
  destruct (creach_args P Hsw Hhd Hb Hnd st None Hc) as [[Hg'|Hg']|[(_ & A1 & _) _]]; [congruence|congruence|].
  destruct (creach_nopending P Hsw Hhd Hb st None Hc) as [Hnp _].
  split; [exact S2|]. split; [exact S1|].
  intros Hsto m Hr'. pose proof (A1 m Hr') as Hin. apply node_names_in in Hin. unfold names in Hin. apply in_map_iff in Hin. destruct Hin as [x [Hnm Hx]].
  destruct (allT_In _ _ _ x HS Hx m Hnm) as (_ & C). cbn [estate] in C. destruct (C Hr' Hsto) as [Hc1|Hp]; [exact Hc1|].
  unfold tasks_ok in Hnp. rewrite Forall_forall in Hnp. rewrite (no_pending_top _ (Hnp x Hx)) in Hp. discriminate Hp.
Qed.
