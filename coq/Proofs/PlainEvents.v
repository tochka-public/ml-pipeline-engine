(* Plain programs, every schedule, any number of event managers that do not raise (suspending ones included):
   the order of lifecycle events relative to the data flow (C14).
   - a node's result is stored -- hence can reach a consumer -- only after EVERY manager has been told
     on_node_complete(node, error=None) for it;
   - a body is invoked only after every manager has seen the successful on_node_complete of each of its inputs. *)
From MLPE Require Import Engine.Run Proofs.ExecLemmas Proofs.Evolve Proofs.StackAll Proofs.PlainWorld Proofs.PlainStep Proofs.PlainLive Proofs.Micro Proofs.PlainBase Proofs.PlainCore Proofs.PlainInv Proofs.PlainTasks Proofs.PlainArgs.

Definition done_ev (m : nat) (n : key) : obs := OEmit m EvNodeComplete (Some n) None None.

(* what may sit directly on top of a frame that receives a node's value: only the frame that produced / announced it *)
Definition adj (f g : frame) : bool :=
  match g with
  | FExecAfterOk _ n _ => match f with FEmit EvNodeComplete (Some n') None None _ _ => key_eqb n' n | _ => false end
  | FNodeAfterExec _ n =>
    match f with
    | FExecStart _ n' _ | FExecAfterStart _ n' _ | FExecAfterBody _ n' | FExecAfterOk _ n' _ | FExecDup n' => key_eqb n' n
    | FExecAfterErr _ _ => true
    | _ => false
    end
  | FEmit _ _ _ _ _ _ => false          (* an emission calls nothing *)
  | _ => true
  end.
Fixpoint pairs (k : list frame) : bool :=
  match k with
  | f :: r => match r with g :: _ => adj f g && pairs r | [] => true end
  | [] => true
  end.

Lemma pairs_tail f r : pairs (f :: r) = true -> pairs r = true.
Proof. cbn [pairs]. destruct r as [|g r']; [reflexivity|]. intros H. apply andb_true_iff in H. apply H. Qed.
Lemma pairs_head f g r : pairs (f :: g :: r) = true -> adj f g = true.
Proof. cbn [pairs]. intros H. apply andb_true_iff in H. apply H. Qed.
Lemma pairs_app fr rest k' :
  pairs (fr :: rest) = true -> pairs k' = true -> (forall g, adj fr g = true -> adj (last k' fr) g = true) -> pairs (k' ++ rest) = true.
Proof.
  intros Hc Hk Hl. destruct k' as [|f k'']; [exact (pairs_tail _ _ Hc)|].
  revert f Hk Hl. induction k'' as [|g r' IH]; intros f Hk Hl.
  - cbn [app last] in *. destruct rest as [|g0 r0]; [reflexivity|]. cbn [pairs]. rewrite (Hl g0 (pairs_head _ _ _ Hc)).
    exact (pairs_tail _ _ Hc).
  - change ((f :: g :: r') ++ rest) with (f :: (g :: r') ++ rest). cbn [pairs app]. cbn [pairs] in Hk. apply andb_true_iff in Hk.
    destruct Hk as [Ha Hk]. rewrite Ha. cbn [andb]. apply IH; [exact Hk|exact Hl].
Qed.


Section EventSteps.
  Variable P : prog.

  Definition ann (tr : list obs) (n : key) : Prop := forall m, m < p_mgrs P -> In (done_ev m n) tr.

  Definition topF (tr : list obs) (f : frame) (sg : option signal) : Prop :=
    match f with
    | FEmit EvNodeComplete (Some n) None None mgr r => forall m, m < mgr + (if r then 1 else 0) -> m < p_mgrs P -> In (done_ev m n) tr
    | FExecAfterOk _ n _ | FNodeAfterExec _ n => (exists v, sg = Some (SVal v)) -> ann tr n
    | _ => True
    end.
  Definition topC (tr : list obs) (k : list frame) (sg : option signal) : Prop :=
    match k with f :: _ => topF tr f sg | [] => True end.
  Definition below_ok (tr : list obs) (g : frame) : Prop :=
    match g with FExecAfterOk _ n _ | FNodeAfterExec _ n => ann tr n | _ => True end.

  Lemma ann_mono new tr n : ann tr n -> ann (new ++ tr) n.
  Proof. intros H m Hm. apply in_or_app. right. exact (H m Hm). Qed.
  Lemma topF_mono new tr f sg : topF tr f sg -> topF (new ++ tr) f sg.
  Proof.
    destruct f; cbn [topF]; try (intros; exact I).
    - destruct ev; try (intros; exact I). destruct n as [n|]; try (intros; exact I). destruct err; try (intros; exact I).
      destruct res; try (intros; exact I). intros H m Hm Hp. apply in_or_app. right. exact (H m Hm Hp).
    - intros H Hs. apply ann_mono. exact (H Hs).
    - intros H Hs. apply ann_mono. exact (H Hs).
  Qed.
  Lemma topC_mono new tr k sg : topC tr k sg -> topC (new ++ tr) k sg.
  Proof. destruct k; [auto|apply topF_mono]. Qed.

  Definition top_after (tr : list obs) (fr : frame) (d : directive) : Prop :=
    match d with
    | DSuspend _ k' => topC tr k' None
    | DYield k' => topC tr k' (Some SGo)
    | DCont k' s' => topC tr k' (Some s')
    | DRet s' => forall v, s' = SVal v -> forall g, adj fr g = true -> below_ok tr g
    end.

  Lemma plain_step_pairs t fr sg st :
    pairs (dir_frames (snd (step_frame P t fr sg st))) = true /\
    (forall g, adj fr g = true -> adj (last (dir_frames (snd (step_frame P t fr sg st))) fr) g = true) /\
    dir_ne (snd (step_frame P t fr sg st)) = true.
  Proof.
    split; [|split; [|apply step_dir_ne]]; destruct (step_pushes P t fr sg st) as [[s' ->]|Hp]; cbn [dir_frames pairs last]; auto;
      destruct Hp; cbn [pairs adj last andb]; rewrite ?key_eqb_refl; try reflexivity;
      intros g Hg; destruct g; cbn [adj] in *; try reflexivity; try discriminate Hg; exact Hg.
  Qed.

  Lemma plain_step_top t fr sg st :
    plain_frame P fr = true -> clean_sig sg -> PS st ->
    topF (st_trace st) fr (Some sg) ->
    top_after (st_trace (fst (step_frame P t fr sg st))) fr (snd (step_frame P t fr sg st)).
  Proof.
    intros Hf Hs Hst. rewrite (plain_step_trace P t fr sg st Hf Hs Hst), (step_plain P t fr sg st Hf Hs Hst).
    unfold plain_obs. cbn [plain_step snd].
    plain_cases fr sg Hf Hs; cbn [flat_map eff_obs rev app top_after topC topF emit_frames]; intros Htop;
      try exact I;
      try (intros ? Hv; discriminate Hv).
    all: try (intros m Hm; exfalso; lia).
    all: try (intros v' _ g Hg; destruct g; cbn [adj below_ok] in *; try exact I; try discriminate Hg).
    all: repeat match goal with
                | |- context [match ?e with EvPipelineStart => _ | _ => _ end] => destruct e
                | H : context [match ?e with EvPipelineStart => _ | _ => _ end] |- _ => destruct e
                | |- context [match ?o with Some _ => _ | None => _ end] => destruct o
                | H : context [match ?o with Some _ => _ | None => _ end] |- _ => destruct o
                end; try exact I; try discriminate.
    all: try (intros m Hm Hp; first [apply Htop; lia | destruct (Nat.eq_dec m mgr) as [->|Hne]; [left; reflexivity|right; apply Htop; lia]]).
    all: try match goal with Hg : key_eqb _ _ = true |- _ => apply key_eqb_spec in Hg; subst end.
    all: try (intros m Hm; apply Htop; [|exact Hm]; match goal with Hq : (_ <=? _) = true |- _ => apply Nat.leb_le in Hq; lia end).
    all: try (apply Htop; eauto).
  Qed.
End EventSteps.

Section EventInv.
  Variable P : prog.
  Notation G := (b_graph (build (p_decls P) (p_inp P) (p_out P))).
  Hypothesis Hsw : forall n, is_switch G n = false.
  Hypothesis Hhd : forall n, is_head G n = false.
  Hypothesis Hbody : forall i kw a v, p_body P i kw a = OVal v -> clean v = true.

  Definition TPe (tr : list obs) (x : task frame) : Prop :=
    match t_state x with
    | TReady k sg => pairs k = true /\ topC P tr k (Some sg)
    | TWait _ k => pairs k = true /\ topC P tr k None
    | TDone _ => True
    end.
  Definition cur_e (tr : list obs) (c : running) : Prop :=
    match c with Some (_, k, sg) => pairs k = true /\ topC P tr k (Some sg) | None => True end.
  Definition glob_e (st : mstate) : Prop := forall n, exists_result n (st_store st) = true -> ann P (st_trace st) n.
  Definition evI (st : mstate) (c : running) : Prop := tasks_ok (TPe (st_trace st)) st /\ cur_e (st_trace st) c /\ glob_e st.

  Lemma topC_nonval tr k s s' : (forall v, s' <> Some (SVal v)) -> topC P tr k s -> topC P tr k s'.
  Proof.
    intros Hn. destruct k as [|f r]; [auto|]. cbn [topC]. destruct f; cbn [topF]; auto.
    - intros _ [v9 Hv]. exfalso. exact (Hn v9 Hv).
    - intros _ [v9 Hv]. exfalso. exact (Hn v9 Hv).
  Qed.

  Theorem creach_events : forall st c, creach P st c -> evI st c.
  Proof.
    intros st c Hc.
    destruct (creach_tstate_inv P (fun tr _ ts => match ts with
                                                  | TReady k sg => pairs k = true /\ topC P tr k (Some sg)
                                                  | TWait _ k => pairs k = true /\ topC P tr k None
                                                  | TDone _ => True
                                                  end) glob_e) with (st := st) (c := c) as (A & B & C); try assumption;
      try (intros; exact I).
    - intros new tr _ [k sg|w k|r]; auto; intros [X Y]; (split; [exact X|apply topC_mono; exact Y]).
    - intros tr _ w k [X Y]. split; [exact X|]. eapply topC_nonval; [|exact Y]. discriminate.
    - intros tr _ k sg [X Y]. split; [exact X|]. eapply topC_nonval; [|exact Y]. discriminate.
    - intros tr _ w k [X Y]. split; [exact X|]. eapply topC_nonval; [|exact Y]. discriminate.
    - split; [reflexivity|exact I].
    - intros n Hn. discriminate Hn.
    - intros a b (Es & _ & Et & _) Ha n Hn. rewrite Es in Hn. rewrite Et. exact (Ha n Hn).
    - intros st0 t fr rest sg Hc0 _ [Bp Bt] C0. pose proof (creach_base P Hsw Hhd Hbody _ _ Hc0) as Hb.
      destruct (b_cur _ _ _ Hb) as [x0 [Hf0 [Hk [Hs _]]]]. cbn [plain_stack forallb] in Hk. apply andb_true_iff in Hk. destruct Hk as [Kf Kr].
      pose proof (b_ps _ _ _ Hb) as Hps.
      destruct (plain_step_pairs P t fr sg st0) as (Hp1 & Hp2 & Hp3).
      cbn [topC] in Bt. pose proof (plain_step_top P t fr sg st0 Kf Hs Hps Bt) as Htop.
      destruct (ev_trace _ _ (ev_step_frame P t fr sg st0)) as [new Etr].
      assert (Hpk : pairs (dir_frames (snd (step_frame P t fr sg st0)) ++ rest) = true) by (apply (pairs_app fr); assumption).
      split; [|split].
      + intros i f _ Hsp. destruct f; cbn [spawns] in Hsp; try contradiction; (split; [reflexivity|exact I]).
      + destruct (snd (step_frame P t fr sg st0)) as [w k'|k'|k' sg'|sg']; cbn [nstate dir_frames dir_ne top_after] in *.
        * split; [exact Hpk|]. destruct k'; [discriminate Hp3|exact Htop].
        * split; [exact Hpk|]. destruct k'; [discriminate Hp3|exact Htop].
        * destruct k' as [|f1 k'']; [discriminate Hp3|]. split; [exact Hpk|exact Htop].
        * (* a value returned to the frame below: that frame is the one the adjacency names *)
          destruct rest as [|g r]; [exact I|]. split; [exact (pairs_tail _ _ Bp)|]. cbn [topC].
          pose proof (pairs_head _ _ _ Bp) as Hadj.
          destruct g; cbn [topF]; try exact I; try (cbn [adj] in Hadj; discriminate Hadj).
          all: intros [v0 Hv0]; inversion Hv0; subst sg'; exact (Htop v0 eq_refl _ Hadj).
      + intros n Hn. rewrite Etr. apply ann_mono. destruct (exists_result n (st_store st0)) eqn:Hn0; [exact (C0 n Hn0)|].
        (* a new result: _run_node was resumed with the value, which is delivered only after the announcements *)
        rewrite (proj1 (plain_step_summary P t fr sg st0 Kf Hs Hps)) in Hn. pose proof Hps as (_ & Hrh & _).
        destruct (step_store_new fr sg st0 n Hrh Hn Hn0) as [d [v [-> ->]]]. cbn [topF] in Bt. apply Bt. eauto.
    - split; [exact A|]. split; [|exact C]. destruct c as [[[t k] sg]|]; [|exact I]. destruct k; [split; [reflexivity|exact I]|exact B].
  Qed.
End EventInv.

Section TraceOrder.
  Variable P : prog.
  Notation G := (b_graph (build (p_decls P) (p_inp P) (p_out P))).
  Hypothesis Hsw : forall n, is_switch G n = false.
  Hypothesis Hhd : forall n, is_head G n = false.
  Hypothesis Hbody : forall i kw a v, p_body P i kw a = OVal v -> clean v = true.
  Notation order := (p_order P (maind P)).
  Hypothesis Hnd : NoDup order.

  Definition tr_ok (tr : list obs) : Prop :=
    forall a b i k kw, tr = a ++ OStart i k kw :: b ->
      exists m, real_index m = i /\ forall p, In p (preds G m) -> ann P b p.

  Definition orderI (st : mstate) : Prop := guard st \/ tr_ok (st_trace st).

  Theorem creach_order : forall st c, creach P st c -> orderI st.
  Proof.
    intros st c Hc.
    assert (K : guard st \/ (tr_ok (st_trace st) /\ allT (fun _ _ => True) st c)); [|destruct K as [Hg|[Ho _]]; [left|right]; assumption].
    revert st c Hc. apply (creach_guarded P Hsw Hhd Hbody (fun s => tr_ok (st_trace s)) (fun _ _ _ => True)); try (intros; exact I).
    - intros a b (_ & _ & Et & _). rewrite Et. auto.
    - intros _ i w k _. exact I.
    - intros a b i k kw E. cbn in E. destruct a as [|y a']; [discriminate E|]. inversion E. destruct a'; discriminate.
    - intros st0 t fr rest sg Hc0 Hg0 _ _ Ho _. pose proof (creach_base P Hsw Hhd Hbody _ _ Hc0) as Hb.
      split; [|apply Forall_forall; intros; exact I].
      destruct (unguard _ _ (creach_args P Hsw Hhd Hbody Hnd _ _ Hc0) Hg0) as [_ HAa].
      destruct (creach_events P Hsw Hhd Hbody _ _ Hc0) as (_ & _ & GE).
      destruct (base_running P _ _ _ _ _ Hb) as (x0 & _ & Hin0 & Hid0 & Kf & _ & Hs & Of & _).
      pose proof (allT_run _ _ _ _ _ _ x0 HAa Hin0 Hid0) as Hz0.
      destruct (plain_step_records P t fr sg st0 Kf Hs (b_ps _ _ _ Hb)) as [->|[o [-> Hrec]]]; [exact Ho|].
      intros a b i k kw E. destruct a as [|y a']; [|inversion E as [[Ey E']]; exact (Ho a' b i k kw E')].
      (* the newest entry is an invocation: by the retry loop of a node task, whose inputs all have results, hence are announced *)
      cbn [app] in E. inversion E; subst o b. inversion Hrec; subst.
      destruct (owner_node_name _ _ _ _ Of eq_refl) as [m [Enm Ei]]. exists m. split; [symmetry; exact Ei|].
      destruct (Hz0 m Enm) as (_ & _ & Cp). intros p Hp. apply GE, Cp, Hp.
  Qed.
End TraceOrder.

Theorem plain_values_after_announcement P :
  plain_prog P -> forall st, reachable P st ->
    forall n, exists_result n (st_store st) = true -> forall m, m < p_mgrs P -> In (done_ev m n) (st_trace st).
Proof.
  intros (Hg & Hb & _) st Hr n Hn. destruct (graph_plain_sound _ Hg) as [Hsw Hhd].
  destruct (creach_events P Hsw Hhd Hb st None (reachable_creach P st Hr)) as (_ & _ & GE). exact (GE n Hn).
Qed.

Theorem plain_bodies_start_after_announcement P :
  plain_prog P -> NoDup (p_order P (maind P)) ->
  forall st, reachable P st -> over st = false -> main_done st = false ->
    forall a b i k kw, st_trace st = a ++ OStart i k kw :: b ->
      exists nd, real_index nd = i /\
                 forall p, In p (preds (b_graph (build (p_decls P) (p_inp P) (p_out P))) nd) -> forall m, m < p_mgrs P -> In (done_ev m p) b.
Proof.
  intros (Hg & Hb & _) Hnd st Hr Ho Hm. destruct (graph_plain_sound _ Hg) as [Hsw Hhd].
  destruct (creach_order P Hsw Hhd Hb Hnd st None (reachable_creach P st Hr)) as [[Hg'|Hg']|Hok]; [congruence|congruence|].
  exact Hok.
Qed.
