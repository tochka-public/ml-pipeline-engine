(* The call discipline of the frame stacks, for every program and every schedule: a frame sits directly above exactly
   the kind of frame that awaits it (FEmit above the frames that await a callback, the retry loop above
   FExecAfterBody, ...), and the task of PipelineChart.run only ever holds chart / emit / run frames.
   Consequences drawn in Proofs/CancelProofs.v: what can be below the `return`-in-`finally` frame of _run_node, and what a
   CancelledError thrown into any task can meet on its way down. *)
From MLPE Require Import Engine.Run Proofs.ExecLemmas Proofs.Evolve.

Inductive cls := KChart | KEmit | KSave | KRun | KDag | KSwitch | KOneOf | KNode | KExec | KRetry | KRec.

Definition cls_eqb (a b : cls) : bool :=
  match a, b with
  | KChart, KChart | KEmit, KEmit | KSave, KSave | KRun, KRun | KDag, KDag | KSwitch, KSwitch | KOneOf, KOneOf
  | KNode, KNode | KExec, KExec | KRetry, KRetry | KRec, KRec => true
  | _, _ => false
  end.

Lemma cls_eqb_eq a b : cls_eqb a b = true -> a = b.
Proof. destruct a, b; simpl; intros H; try reflexivity; discriminate. Qed.

Definition cls_of (f : frame) : cls :=
  match f with
  | FChartStart | FChartAfterStart | FChartAfterRun | FChartAfterEmitOk _ | FChartAfterEmitErr _ => KChart
  | FEmit _ _ _ _ _ _ => KEmit
  | FSave _ _ _ _ => KSave
  | FRunWait => KRun
  | FDagStart _ | FDagLoop _ _ _ | FDagFinal _ => KDag
  | FSwitchStart _ _ | FSwitchAfter _ => KSwitch
  | FOneOfLoop _ _ _ | FOneOfWait _ _ _ _ _ => KOneOf
  | FNodeStart _ _ _ | FNodeAfterExec _ _ | FNodeAfterSave _ _ _ => KNode
  | FExecStart _ _ _ | FExecDup _ | FExecAfterStart _ _ _ | FExecAfterBody _ _ | FExecAfterOk _ _ _ | FExecAfterErr _ _ => KExec
  | FRetry _ _ _ _ | FRetryAfterBody _ _ _ | FRetryAfterEmit _ _ _ | FRetryAfterSleep _ _ _ => KRetry
  | FRecStart _ _ _ | FRecLoop _ _ _ _ _ _ | FRecAfterIter _ _ _ _ _ | FRecAfterDefault _ _ => KRec
  end.

(* the class of callee a frame waits for (None: the frame never has a callee above it) *)
Definition awaits (f : frame) : option cls :=
  match f with
  | FChartAfterStart | FChartAfterEmitOk _ | FChartAfterEmitErr _ => Some KEmit
  | FChartAfterRun => Some KRun
  | FSwitchAfter _ | FRecAfterIter _ _ _ _ _ => Some KDag
  | FNodeAfterExec _ _ => Some KExec
  | FNodeAfterSave _ _ _ => Some KSave
  | FExecAfterStart _ _ _ | FExecAfterOk _ _ _ | FExecAfterErr _ _ | FRetryAfterEmit _ _ _ => Some KEmit
  | FExecAfterBody _ _ => Some KRetry
  | FRecAfterDefault _ _ => Some KNode
  | _ => None
  end.

Definition awaits_b (g : frame) (c : cls) : bool :=
  match awaits g with Some c' => cls_eqb c c' | None => false end.

Fixpoint chainb (k : list frame) : bool :=
  match k with
  | [] => true
  | f :: r => match r with
              | [] => true
              | g :: _ => awaits_b g (cls_of f) && chainb r
              end
  end.

Definition main_frame (f : frame) : bool :=
  match f with
  | FChartStart | FChartAfterStart | FChartAfterRun | FChartAfterEmitOk _ | FChartAfterEmitErr _ | FRunWait => true
  | FEmit EvPipelineStart None _ _ _ _ | FEmit EvPipelineComplete None _ _ _ _ => true
  | _ => false
  end.
Definition main_stack (k : list frame) : bool := forallb main_frame k.

(* what a step may put in place of the frame it resumed *)
Definition seg_ok (fr : frame) (k' : list frame) : Prop :=
  k' <> [] /\ chainb k' = true /\ cls_of (last k' fr) = cls_of fr /\ (main_frame fr = true -> main_stack k' = true).

Definition dir_ok (fr : frame) (d : directive) : Prop :=
  match d with
  | DSuspend _ k' | DYield k' | DCont k' _ => seg_ok fr k'
  | DRet _ => True
  end.

Lemma step_frame_dir_ok P t fr sg st : dir_ok fr (snd (step_frame P t fr sg st)).
Proof.
  destruct fr; destruct sg; cbn [step_frame]; unfold default_or_raise; repeat break_match; cbn [snd dir_ok]; try exact I;
    (split; [discriminate|split; [reflexivity|split; [reflexivity|cbn; intros H; first [reflexivity|discriminate|
      repeat match goal with Hx : context [match ?x with _ => _ end] |- _ => destruct x end; first [reflexivity|discriminate]]]]]).
Qed.

Lemma chainb_tail f r : chainb (f :: r) = true -> chainb r = true.
Proof. cbn [chainb]. destruct r as [|g r']; [reflexivity|]. intros H. apply andb_true_iff in H. apply H. Qed.

Lemma chainb_app fr rest k' :
  chainb (fr :: rest) = true -> k' <> [] -> chainb k' = true -> cls_of (last k' fr) = cls_of fr -> chainb (k' ++ rest) = true.
Proof.
  intros Hc Hne Hk Hl. induction k' as [|f r IH]; [contradiction|].
  destruct r as [|g r'].
  - cbn [app]. cbn [last] in Hl. destruct rest as [|h rest']; [reflexivity|].
    cbn [chainb] in Hc |- *. rewrite Hl. exact Hc.
  - change ((f :: g :: r') ++ rest) with (f :: (g :: r') ++ rest). cbn [chainb] in Hk. apply andb_true_iff in Hk. destruct Hk as [Ha Hk].
    cbn [chainb app]. rewrite Ha. cbn [andb]. apply IH; [discriminate|exact Hk|exact Hl].
Qed.

Definition stack_TP (x : task frame) : Prop :=
  (t_helper x = false <-> t_id x = main_tid) /\
  match t_state x with
  | TReady k sg => (k <> [] /\ chainb k = true /\ (t_id x = main_tid -> main_stack k = true)) /\ (sg = SGo \/ sg = SThrow XCancelled)
  | TWait _ k => k <> [] /\ chainb k = true /\ (t_id x = main_tid -> main_stack k = true)
  | TDone _ => True
  end.

Lemma stack_TP_wake x w k : t_state x = TWait w k -> stack_TP x -> stack_TP (with_ts x (TReady k SGo)).
Proof. unfold stack_TP. intros E [H1 H2]. rewrite E in H2. cbn. auto. Qed.
Lemma stack_TP_cancel_ready x k sg : t_state x = TReady k sg -> stack_TP x -> stack_TP (with_ts x (TReady k (SThrow XCancelled))).
Proof. unfold stack_TP. intros E [H1 H2]. rewrite E in H2. cbn. destruct H2. auto. Qed.
Lemma stack_TP_cancel_wait x w k : t_state x = TWait w k -> stack_TP x -> stack_TP (with_ts x (TReady k (SThrow XCancelled))).
Proof. unfold stack_TP. intros E [H1 H2]. rewrite E in H2. cbn. auto. Qed.
Lemma stack_TP_spawn i nm f : 1 <= i -> spawn_frame f = true ->
                              stack_TP {| t_id := i; t_name := nm; t_state := TReady [f] SGo; t_helper := true |}.
Proof.
  intros Hi Hf. unfold stack_TP, main_tid. cbn. split; [split; [discriminate|lia]|]. split; [|auto]. split; [discriminate|]. split; [reflexivity|lia].
Qed.

Lemma seg_ok_app fr rest k' :
  chainb (fr :: rest) = true -> main_stack (fr :: rest) = true -> seg_ok fr k' ->
  chainb (k' ++ rest) = true /\ main_stack (k' ++ rest) = true.
Proof.
  intros Hc Hm [Hne [Hk [Hl Hmk]]]. split; [apply (chainb_app fr); assumption|].
  unfold main_stack in *. rewrite forallb_app. cbn [forallb] in Hm. apply andb_true_iff in Hm. destruct Hm as [Hf Hr].
  rewrite (Hmk Hf), Hr. reflexivity.
Qed.

Lemma main_stack_tail f r : main_stack (f :: r) = true -> main_stack r = true.
Proof. unfold main_stack. cbn [forallb]. intros H. apply andb_true_iff in H. apply H. Qed.

Lemma below_chart fr rest : cls_of fr = KChart -> chainb (fr :: rest) = true -> rest = [].
Proof.
  intros Hk. destruct rest as [|g r]; [reflexivity|]. cbn [chainb]. rewrite Hk. intros H. apply andb_true_iff in H. destruct H as [H _].
  destruct g; discriminate H.
Qed.

Section Stacks.
  Variable P : prog.

  Definition stacks_ok (st : mstate) : Prop := tasks_ok stack_TP st.

  Lemma exec_stacks_ok fuel t k sg st :
    stacks_ok st -> 1 <= st_next st -> chainb k = true -> (t = main_tid -> main_stack k = true) ->
    stacks_ok (exec P fuel t k sg st).
  Proof.
    intros H0 N0 Hc Hm.
    pose (shape := fun k => k <> [] /\ chainb k = true /\ (t = main_tid -> main_stack k = true)).
    apply (exec_tasks_rule P stack_TP stack_TP_wake stack_TP_cancel_ready stack_TP_cancel_wait stack_TP_spawn t
             (fun ts => match ts with
                        | TReady k sg => shape k /\ (sg = SGo \/ sg = SThrow XCancelled)
                        | TWait _ k => shape k
                        | TDone _ => True
                        end)
             (fun k _ => chainb k = true /\ (t = main_tid -> main_stack k = true)) stacks_ok); auto.
    - intros x ts <- Ho [Hx _]. split; [exact Hx|]. destruct ts; exact Ho.
    - intros fr rest sg' s [Hch Hmain]. pose proof (step_frame_dir_ok P t fr sg' s) as Hd.
      assert (Hseg : forall k', seg_ok fr k' -> shape (k' ++ rest)).
      { intros k' Hk. split; [destruct k'; [destruct Hk; contradiction|discriminate]|]. split.
        - apply (chainb_app fr); [exact Hch|apply Hk..].
        - intros Ht. apply (seg_ok_app fr); auto. }
      destruct (snd (step_frame P t fr sg' s)) as [w k'|k'|k' sg''|sg'']; cbn [dir_ok] in Hd.
      + apply Hseg, Hd.
      + split; [apply Hseg, Hd|auto].
      + apply Hseg, Hd.
      + split; [apply (chainb_tail fr), Hch|]. intros Ht. apply (main_stack_tail fr), Hmain, Ht.
    - intros s Hs. apply ok_abort; [|exact Hs]. intros x r [Hx _]. split; [exact Hx|exact I].
  Qed.

  Theorem reachable_stacks_ok : forall st, reachable P st -> stacks_ok st.
  Proof.
    apply (reachable_inv P stacks_ok).
    - unfold stacks_ok, tasks_ok, init_state. cbn. constructor; [|constructor]. unfold stack_TP, main_tid. cbn.
      split; [split; reflexivity|]. split; [|auto]. split; [discriminate|]. split; reflexivity.
    - intros st Hr H. apply (loop_step_rule P stacks_ok); [auto| |].
      + intros. apply ok_dequeue. exact H.
      + intros t rest x k sg Hq Hf Ht. destruct (find_task_in _ _ _ Hf) as [Hin Hid].
        destruct (tasks_ok_in _ _ _ H Hin) as [_ Hx]. rewrite Ht, Hid in Hx. destruct Hx as [[_ [B C]] _].
        apply exec_stacks_ok; [apply ok_dequeue, H|exact (reachable_next P st Hr)|exact B|exact C].
    - intros st g _ H. apply (complete_gate_tasks_ok stack_TP stack_TP_wake). exact H.
    - intros st _ H. apply (ok_cancel_task stack_TP stack_TP_cancel_ready stack_TP_cancel_wait). exact H.
  Qed.
End Stacks.
