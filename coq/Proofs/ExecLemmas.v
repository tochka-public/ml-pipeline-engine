(* Generic reasoning principles for the operational model: rules for [exec], for one action, a schedule and reachable
   states; an invariant kept by the basic primitives is kept by the compound ones and by [step_frame] (section Closed), with
   per-task predicates, preorders on states and the kind of entries the history grows by (sections PerTask, RelStep, Inert,
   Grows) as its instances. *)
From MLPE Require Import Engine.Run.

Definition with_ts (x : task frame) (ts : tstate frame) : task frame :=
  {| t_id := t_id x; t_name := t_name x; t_state := ts; t_helper := t_helper x |}.

Definition dequeue (st : mstate) : mstate :=
  {| st_store := st_store st; st_adddata := st_adddata st; st_tasks := st_tasks st; st_ready := tl (st_ready st);
     st_waiters := st_waiters st; st_events := st_events st; st_trace := st_trace st; st_ctrs := st_ctrs st;
     st_next := st_next st |}.

Section Rules.
  Variable P : prog.

  Lemma exec_rule (t : tid) (Q : list frame -> signal -> mstate -> Prop) (R : mstate -> Prop) :
    (forall sg st, Q [] sg st -> R (set_tstate t (TDone sg) st)) ->
    (forall fr rest sg st, Q (fr :: rest) sg st ->
        R (abort P st) /\
        match step_frame P t fr sg st with
        | (st1, DSuspend w k') => R (suspend t w (k' ++ rest) st1)
        | (st1, DYield k') => R (push_ready t (set_tstate t (TReady (k' ++ rest) SGo) st1))
        | (st1, DCont k' sg') => Q (k' ++ rest) sg' st1
        | (st1, DRet sg') => Q rest sg' st1
        end) ->
    forall fuel k sg st, Q k sg st -> R (exec P fuel t k sg st).
  Proof.
    intros Hnil Hcons. induction fuel as [|f IH]; intros k sg st HQ.
    - destruct k as [|fr rest]; cbn [exec]; [apply Hnil; exact HQ|]. apply (Hcons fr rest sg st HQ).
    - destruct k as [|fr rest]; cbn [exec]; [apply Hnil; exact HQ|].
      destruct (Hcons fr rest sg st HQ) as [_ H].
      destruct (step_frame P t fr sg st) as [st1 [w k'|k'|k' sg'|sg']]; try exact H; apply IH; exact H.
  Qed.

  Lemma loop_step_unfold st :
    loop_step P st =
    match st_ready st with
    | [] => st
    | t :: _ =>
      match find_task t (st_tasks st) with
      | Some x => match t_state x with
                  | TReady k sg => exec P (fuel_budget P) t k sg (dequeue st)
                  | _ => dequeue st
                  end
      | None => dequeue st
      end
    end.
  Proof.
    unfold loop_step, dequeue. destruct (st_ready st) as [|t rest]; [reflexivity|]. cbv zeta. cbn [tl st_tasks].
    destruct (find_task t (st_tasks st)) as [[i nm [k sg|w k|r] h]|]; cbn [t_state]; reflexivity.
  Qed.

  Lemma loop_step_rule (R : mstate -> Prop) st :
    (st_ready st = [] -> R st) ->
    (forall t rest, st_ready st = t :: rest -> R (dequeue st)) ->
    (forall t rest x k sg, st_ready st = t :: rest -> find_task t (st_tasks st) = Some x -> t_state x = TReady k sg ->
                           R (exec P (fuel_budget P) t k sg (dequeue st))) ->
    R (loop_step P st).
  Proof.
    intros H0 H1 H2. rewrite loop_step_unfold. destruct (st_ready st) as [|t rest] eqn:E; [apply H0; reflexivity|].
    destruct (find_task t (st_tasks st)) as [x|] eqn:F; [|apply (H1 t rest); reflexivity].
    destruct (t_state x) as [k sg|w k|r] eqn:T; try (apply (H1 t rest); reflexivity).
    apply (H2 t rest x k sg); auto.
  Qed.

  Lemma quiesce_rule (I : mstate -> Prop) :
    (forall st, I st -> I (loop_step P st)) -> forall fuel st, I st -> I (quiesce P fuel st).
  Proof.
    intros Hs. induction fuel as [|f IH]; intros st H; cbn [quiesce]; [exact H|].
    destruct (st_ready st); [exact H|]. apply IH, Hs, H.
  Qed.

  Lemma quiesce_reachable fuel st : reachable P st -> reachable P (quiesce P fuel st).
  Proof. apply quiesce_rule. intros s H. exact (reach_step P s AStep H). Qed.

  Lemma action_rule (I : mstate -> Prop) :
    (forall st, reachable P st -> I st -> I (loop_step P st)) ->
    (forall st g, reachable P st -> I st -> I (complete_gate g st)) ->
    (forall st, reachable P st -> I st -> I (cancel_task main_tid st)) ->
    forall a st, reachable P st -> I st -> I (apply_action P a st).
  Proof.
    intros Hs Hg Hc a st Hr H. destruct a as [| |g|]; cbn [apply_action]; auto.
    refine (proj2 (quiesce_rule (fun s => reachable P s /\ I s) _ quiesce_fuel st (conj Hr H))).
    intros s [Hr' H']. split; [exact (reach_step P s AStep Hr')|auto].
  Qed.

  Lemma reachable_inv (I : mstate -> Prop) :
    I (init_state) ->
    (forall st, reachable P st -> I st -> I (loop_step P st)) ->
    (forall st g, reachable P st -> I st -> I (complete_gate g st)) ->
    (forall st, reachable P st -> I st -> I (cancel_task main_tid st)) ->
    forall st, reachable P st -> I st.
  Proof.
    intros H0 Hs Hg Hc st H. induction H as [|st a H IH]; [exact H0|]. apply action_rule; assumption.
  Qed.

  Lemma sched_rule (I : mstate -> Prop) :
    (forall a st, reachable P st -> I st -> I (apply_action P a st)) ->
    forall sched st, reachable P st -> I st ->
                     reachable P (fold_left (fun s a => apply_action P a s) sched st)
                     /\ I (fold_left (fun s a => apply_action P a s) sched st).
  Proof.
    intros Ha. induction sched as [|a r IH]; intros st Hr H; cbn [fold_left]; [split; assumption|].
    apply IH; [exact (reach_step P st a Hr)|apply Ha; assumption].
  Qed.
End Rules.

Section Tasks.
  Lemma find_task_in t (l : list (task frame)) x : find_task t l = Some x -> In x l /\ t_id x = t.
  Proof.
    induction l as [|y r IH]; simpl; [discriminate|].
    destruct (Nat.eqb (t_id y) t) eqn:E.
    - intros H. inversion H; subst. split; [left; reflexivity|apply Nat.eqb_eq; exact E].
    - intros H. destruct (IH H). split; [right|]; assumption.
  Qed.

  Lemma find_task_app t (l1 l2 : list (task frame)) :
    find_task t (l1 ++ l2) = match find_task t l1 with Some x => Some x | None => find_task t l2 end.
  Proof. induction l1 as [|y r IH]; cbn [app find_task]; [reflexivity|]. destruct (Nat.eqb (t_id y) t); [reflexivity|exact IH]. Qed.

  Lemma upd_task_Forall (Q : task frame -> Prop) t f l :
    Forall Q l -> (forall x, find_task t l = Some x -> Q x -> Q (f x)) -> Forall Q (upd_task t f l).
  Proof.
    induction l as [|y r IH]; simpl; intros H Hf; [constructor|].
    inversion H; subst. destruct (Nat.eqb (t_id y) t) eqn:E.
    - constructor; [|assumption]. apply Hf; [reflexivity|assumption].
    - constructor; [assumption|]. apply IH; assumption.
  Qed.

  Lemma find_upd_same t f (l : list (task frame)) x :
    (forall y, t_id (f y) = t_id y) ->
    find_task t l = Some x -> find_task t (upd_task t f l) = Some (f x).
  Proof.
    intros Hid. induction l as [|y r IH]; simpl; [discriminate|].
    destruct (Nat.eqb (t_id y) t) eqn:E; simpl.
    - intros H. inversion H; subst. rewrite Hid, E. reflexivity.
    - rewrite E. exact IH.
  Qed.

  Lemma find_upd_other t t' f (l : list (task frame)) :
    (forall y, t_id (f y) = t_id y) -> t' <> t ->
    find_task t' (upd_task t f l) = find_task t' l.
  Proof.
    intros Hid Hne. induction l as [|y r IH]; simpl; [reflexivity|].
    destruct (Nat.eqb (t_id y) t) eqn:E; simpl.
    - rewrite Hid. apply Nat.eqb_eq in E. destruct (Nat.eqb (t_id y) t') eqn:E'; [|reflexivity].
      apply Nat.eqb_eq in E'. congruence.
    - destruct (Nat.eqb (t_id y) t'); [reflexivity|exact IH].
  Qed.

  Lemma find_upd_none t t' f (l : list (task frame)) :
    (forall y, t_id (f y) = t_id y) ->
    find_task t' l = None -> find_task t' (upd_task t f l) = None.
  Proof.
    intros Hid. induction l as [|y r IH]; simpl; [reflexivity|].
    destruct (Nat.eqb (t_id y) t') eqn:E'; [discriminate|]. intros H.
    destruct (Nat.eqb (t_id y) t) eqn:E; simpl.
    - rewrite Hid, E'. exact H.
    - rewrite E'. apply IH. exact H.
  Qed.

  Lemma find_set_tstate t' t ts (st : mstate) x :
    find_task t' (st_tasks (set_tstate t ts st)) = Some x ->
    (t' = t /\ exists y, find_task t (st_tasks st) = Some y /\ x = with_ts y ts) \/ (t' <> t /\ find_task t' (st_tasks st) = Some x).
  Proof.
    unfold set_tstate. cbn [st_tasks]. intros H. destruct (Nat.eq_dec t' t) as [->|Hne].
    - left. split; [reflexivity|]. destruct (find_task t (st_tasks st)) as [y|] eqn:F.
      + rewrite (find_upd_same t _ _ y) in H by (reflexivity || exact F). inversion H. eauto.
      + rewrite find_upd_none in H by (reflexivity || exact F). discriminate.
    - right. split; [exact Hne|]. rewrite find_upd_other in H by (reflexivity || exact Hne). exact H.
  Qed.

  Lemma find_task_abort P t st x : find_task t (st_tasks (abort P st)) = Some x -> exists r, t_state x = TDone r.
  Proof.
    unfold abort. cbn [st_tasks]. induction (st_tasks st) as [|z l IH]; cbn [map find_task t_id]; [discriminate|].
    destruct (Nat.eqb (t_id z) t); [intros H; inversion H; cbn; eauto|exact IH].
  Qed.

  Lemma wake_all_rule (I : mstate -> Prop) w sg st :
    (forall t x w' k s, I s -> find_task t (st_tasks s) = Some x -> t_state x = TWait w' k ->
                        I (push_ready t (set_tstate t (TReady k sg) s))) ->
    I (set_waiters (filter (fun p : wait * tid => negb (wait_eqb (fst p) w)) (st_waiters st)) st) -> I (wake_all w sg st).
  Proof.
    intros Hw. unfold wake_all. generalize (filter (fun p : wait * tid => wait_eqb (fst p) w) (st_waiters st)).
    intros l. generalize (set_waiters (filter (fun p : wait * tid => negb (wait_eqb (fst p) w)) (st_waiters st)) st).
    induction l as [|p r IH]; intros s H; cbn [fold_left]; [exact H|]. apply IH. unfold wake.
    destruct (find_task (snd p) (st_tasks s)) as [[i nm [k s0|w0 k|r0] h]|] eqn:F; try exact H.
    apply (Hw _ _ w0 k s H F). reflexivity.
  Qed.

  Lemma wake_all_next w sg (st : mstate) : st_next (wake_all w sg st) = st_next st.
  Proof. apply (wake_all_rule (fun s => st_next s = st_next st)); auto. Qed.

  Lemma cancel_task_next t (st : mstate) : st_next (cancel_task t st) = st_next st.
  Proof. unfold cancel_task. destruct (find_task t (st_tasks st)) as [[i nm [k s|w k|r] h]|]; reflexivity. Qed.
End Tasks.

Lemma mem_add_set_eq (n k : key) l : mem key_eqb n (add_set key_eqb k l) = key_eqb n k || mem key_eqb n l.
Proof.
  unfold add_set. destruct (mem key_eqb k l) eqn:E.
  - destruct (key_eqb n k) eqn:E2; [|reflexivity]. apply key_eqb_spec in E2. subst. rewrite E. reflexivity.
  - induction l as [|x r IH]; cbn in *; [rewrite orb_false_r; destruct (key_eqb n k); reflexivity|].
    destruct (key_eqb k x) eqn:E3; [discriminate|]. destruct (key_eqb n x); [rewrite orb_true_r; reflexivity|]. apply IH. exact E.
Qed.

Definition add_event (n : key) (st : mstate) : mstate :=
  {| st_store := st_store st; st_adddata := st_adddata st; st_tasks := st_tasks st; st_ready := st_ready st;
     st_waiters := st_waiters st; st_events := add_set key_eqb n (st_events st); st_trace := st_trace st;
     st_ctrs := st_ctrs st; st_next := st_next st |}.

(* the five shapes in which the engine creates a task *)
Definition spawn_frame (f : frame) : bool :=
  match f with
  | FDagStart _ | FSwitchStart _ _ | FOneOfLoop _ _ _ | FNodeStart _ _ _ | FRecStart _ _ _ => true
  | _ => false
  end.

(* case analysis on the scrutinee of an innermost match of the goal *)
Ltac break_match :=
  match goal with
  | |- context [match ?x with _ => _ end] =>
    lazymatch x with
    | context [match _ with _ => _ end] => fail
    | _ => destruct x eqn:?
    end
  end.

(* rewrite the components of a destructed [spawn] back into projections *)
Ltac spawn_norm :=
  repeat match goal with
         | H : spawn ?nm ?h ?k ?s = (?s1, ?t1) |- _ =>
           let E := fresh in
           assert (E : s1 = fst (spawn nm h k s)) by (rewrite H; reflexivity);
           rewrite E in *; clear E H
         end.

(* [step_frame] changes the state only through the primitives below (tasks are created with one of the five frames
   above), so a predicate they all preserve is preserved by one resumption of any frame: the one pass over all
   (frame, signal) cases. *)
Section Closed.
  Variable P : prog.
  Variable I : mstate -> Prop.
  Hypothesis I_emit_obs : forall o st, I st -> I (emit_obs o st).
  Hypothesis I_with_store : forall f st, I st -> I (with_store f st).
  Hypothesis I_bump : forall c st, I st -> I (bump c st).
  Hypothesis I_set_adddata : forall k v st, I st -> I (set_adddata k v st).
  Hypothesis I_add_event : forall n st, I st -> I (add_event n st).
  Hypothesis I_wake_all : forall w st, I st -> I (wake_all w SGo st).
  Hypothesis I_cancel_task : forall t st, I st -> I (cancel_task t st).
  Hypothesis I_spawn : forall nm f st, I st -> spawn_frame f = true -> I (fst (spawn nm true [f] st)).

  Lemma inv_notify_keys ks st : I st -> I (notify_keys ks st).
  Proof.
    unfold notify_keys. revert st; induction ks as [|k r IH]; intros st H; cbn [fold_left]; [exact H|]. apply IH, I_wake_all, H.
  Qed.

  Lemma inv_set_event n st : I st -> I (set_event n st).
  Proof. intros H. change (set_event n st) with (wake_all (WEvent n) SGo (add_event n st)). apply I_wake_all, I_add_event, H. Qed.

  Lemma inv_cancel_tasks ts st : I st -> I (cancel_tasks ts st).
  Proof.
    unfold cancel_tasks. revert st; induction ts as [|t r IH]; intros st H; cbn [fold_left]; [exact H|]. apply IH, I_cancel_task, H.
  Qed.

  Lemma inv_finally_a n st : I st -> I (finally_a n st).
  Proof. intros H. apply I_wake_all, inv_set_event, H. Qed.

  Lemma inv_finally_b d n st : I st -> I (finally_b P d n st).
  Proof.
    intros H. unfold finally_b. destruct (key_eqb n (d_dst d)); repeat apply I_wake_all; apply inv_notify_keys, inv_set_event, H.
  Qed.

  Lemma inv_fold_hide (l : list key) st : I st -> I (fold_left (fun s k => emit_obs (OHide k) s) l st).
  Proof. revert st; induction l as [|k r IH]; intros st H; cbn [fold_left]; [exact H|]. apply IH, I_emit_obs, H. Qed.

  Lemma inv_step_frame t fr sg st : I st -> I (fst (step_frame P t fr sg st)).
  Proof.
    intros H. destruct fr; destruct sg; cbn [step_frame]; unfold default_or_raise, reduced;
      repeat break_match; spawn_norm; cbn [fst];
      repeat first
             [ assumption
             | apply inv_notify_keys | apply inv_set_event | apply inv_cancel_tasks | apply I_cancel_task
             | apply inv_finally_a | apply inv_finally_b | apply I_emit_obs | apply I_with_store | apply I_bump
             | apply I_set_adddata | apply inv_fold_hide | apply I_wake_all
             | (apply I_spawn; [|reflexivity]) ].
  Qed.
End Closed.

Section PerTask.
  Variable TP : task frame -> Prop.
  Hypothesis TP_wake : forall x w k, t_state x = TWait w k -> TP x -> TP (with_ts x (TReady k SGo)).
  Hypothesis TP_cancel_ready : forall x k sg, t_state x = TReady k sg -> TP x -> TP (with_ts x (TReady k (SThrow XCancelled))).
  Hypothesis TP_cancel_wait : forall x w k, t_state x = TWait w k -> TP x -> TP (with_ts x (TReady k (SThrow XCancelled))).

  Definition tasks_ok (st : mstate) : Prop := Forall TP (st_tasks st).

  Lemma tasks_ok_same st st' : st_tasks st' = st_tasks st -> tasks_ok st -> tasks_ok st'.
  Proof. unfold tasks_ok. intros ->. auto. Qed.

  Lemma tasks_ok_in st x : tasks_ok st -> In x (st_tasks st) -> TP x.
  Proof. unfold tasks_ok. rewrite Forall_forall. auto. Qed.

  Lemma ok_set_tstate t ts st :
    tasks_ok st -> (forall x, find_task t (st_tasks st) = Some x -> TP x -> TP (with_ts x ts)) -> tasks_ok (set_tstate t ts st).
  Proof. unfold tasks_ok, set_tstate; simpl. intros H Hf. apply upd_task_Forall; assumption. Qed.

  Lemma ok_emit_obs o st : tasks_ok st -> tasks_ok (emit_obs o st).
  Proof. apply tasks_ok_same. reflexivity. Qed.
  Lemma ok_with_store f st : tasks_ok st -> tasks_ok (with_store f st).
  Proof. apply tasks_ok_same. reflexivity. Qed.
  Lemma ok_bump c st : tasks_ok st -> tasks_ok (bump c st).
  Proof. apply tasks_ok_same. reflexivity. Qed.
  Lemma ok_set_adddata k v st : tasks_ok st -> tasks_ok (set_adddata k v st).
  Proof. apply tasks_ok_same. reflexivity. Qed.
  Lemma ok_push_ready t st : tasks_ok st -> tasks_ok (push_ready t st).
  Proof. apply tasks_ok_same. reflexivity. Qed.
  Lemma ok_add_event n st : tasks_ok st -> tasks_ok (add_event n st).
  Proof. apply tasks_ok_same. reflexivity. Qed.
  Lemma ok_dequeue st : tasks_ok st -> tasks_ok (dequeue st).
  Proof. apply tasks_ok_same. reflexivity. Qed.

  Lemma ok_wake_all w st : tasks_ok st -> tasks_ok (wake_all w SGo st).
  Proof.
    intros H. apply wake_all_rule; [|exact H]. intros t x w' k s Hs F E. apply ok_push_ready, ok_set_tstate; [exact Hs|].
    intros y Hy. rewrite F in Hy. inversion Hy; subst. apply (TP_wake _ w' k E).
  Qed.

  Lemma ok_cancel_task t st : tasks_ok st -> tasks_ok (cancel_task t st).
  Proof.
    intros H. unfold cancel_task. destruct (find_task t (st_tasks st)) as [x|] eqn:F; [|exact H].
    destruct x as [i nm [k s|w k|r] h]; try exact H.
    - apply ok_set_tstate; [exact H|]. intros y Hy HT. rewrite F in Hy. inversion Hy; subst.
      refine (TP_cancel_ready _ k s _ HT); reflexivity.
    - apply ok_push_ready, ok_set_tstate; [exact H|]. intros y Hy HT. simpl in Hy. rewrite F in Hy. inversion Hy; subst.
      refine (TP_cancel_wait _ w k _ HT); reflexivity.
  Qed.

  Lemma ok_notify c st : tasks_ok st -> tasks_ok (notify c st).
  Proof. apply ok_wake_all. Qed.
  Lemma ok_notify_keys ks st : tasks_ok st -> tasks_ok (notify_keys ks st).
  Proof. exact (inv_notify_keys tasks_ok ok_wake_all ks st). Qed.
  Lemma ok_set_event n st : tasks_ok st -> tasks_ok (set_event n st).
  Proof. exact (inv_set_event tasks_ok ok_add_event ok_wake_all n st). Qed.
  Lemma ok_cancel_tasks ts st : tasks_ok st -> tasks_ok (cancel_tasks ts st).
  Proof. exact (inv_cancel_tasks tasks_ok ok_cancel_task ts st). Qed.
  Lemma ok_finally_a n st : tasks_ok st -> tasks_ok (finally_a n st).
  Proof. exact (inv_finally_a tasks_ok ok_add_event ok_wake_all n st). Qed.
  Lemma ok_finally_b P d n st : tasks_ok st -> tasks_ok (finally_b P d n st).
  Proof. exact (inv_finally_b P tasks_ok ok_add_event ok_wake_all d n st). Qed.
  Lemma ok_fold_hide (l : list key) st :
    tasks_ok st -> tasks_ok (fold_left (fun s k => emit_obs (OHide k) s) l st).
  Proof. exact (inv_fold_hide tasks_ok ok_emit_obs l st). Qed.

  Lemma ok_spawn nm h k st :
    tasks_ok st -> TP {| t_id := st_next st; t_name := nm; t_state := TReady k SGo; t_helper := h |} ->
    tasks_ok (fst (spawn nm h k st)).
  Proof. unfold tasks_ok, spawn; simpl. intros H Hn. apply Forall_app. split; [exact H|]. constructor; [exact Hn|constructor]. Qed.

  Lemma ok_suspend t w k st :
    tasks_ok st -> (forall x, find_task t (st_tasks st) = Some x -> TP x -> TP (with_ts x (TWait w k))) ->
    tasks_ok (suspend t w k st).
  Proof. intros H Hf. unfold suspend. apply (tasks_ok_same (set_tstate t (TWait w k) st)); [reflexivity|]. apply ok_set_tstate; assumption. Qed.

  Lemma ok_abort P st :
    (forall x k, TP x -> TP (with_ts x (TDone (SThrow (XEng EOutOfFuel k))))) -> tasks_ok st -> tasks_ok (abort P st).
  Proof.
    intros Hd H. unfold tasks_ok, abort in *. cbn [st_tasks]. rewrite Forall_forall in *. intros y Hy.
    apply in_map_iff in Hy. destruct Hy as [x [<- Hx]]. apply (Hd x). apply H. exact Hx.
  Qed.
End PerTask.

Section PerTaskStep.
  Variable P : prog.
  Variable TP : task frame -> Prop.
  Hypothesis TP_wake : forall x w k, t_state x = TWait w k -> TP x -> TP (with_ts x (TReady k SGo)).
  Hypothesis TP_cancel_ready : forall x k sg, t_state x = TReady k sg -> TP x -> TP (with_ts x (TReady k (SThrow XCancelled))).
  Hypothesis TP_cancel_wait : forall x w k, t_state x = TWait w k -> TP x -> TP (with_ts x (TReady k (SThrow XCancelled))).
  Hypothesis TP_spawn : forall i nm f, 1 <= i -> spawn_frame f = true ->
                                       TP {| t_id := i; t_name := nm; t_state := TReady [f] SGo; t_helper := true |}.

  (* the running task's own entry is stale until [exec] writes it back, and is not touched here *)
  Lemma step_frame_next_tasks_ok t fr sg st :
    1 <= st_next st /\ tasks_ok TP st ->
    1 <= st_next (fst (step_frame P t fr sg st)) /\ tasks_ok TP (fst (step_frame P t fr sg st)).
  Proof.
    apply (inv_step_frame P (fun s => 1 <= st_next s /\ tasks_ok TP s)); intros * [N K].
    - split; [exact N|apply ok_emit_obs, K].
    - split; [exact N|apply ok_with_store, K].
    - split; [exact N|apply ok_bump, K].
    - split; [exact N|apply ok_set_adddata, K].
    - split; [exact N|apply ok_add_event, K].
    - split; [rewrite wake_all_next; exact N|apply ok_wake_all; assumption].
    - split; [rewrite cancel_task_next; exact N|apply ok_cancel_task; assumption].
    - intros Hf. split; [cbn; lia|apply ok_spawn; [exact K|apply TP_spawn; assumption]].
  Qed.

  Lemma step_frame_tasks_ok t fr sg st : 1 <= st_next st -> tasks_ok TP st -> tasks_ok TP (fst (step_frame P t fr sg st)).
  Proof. intros Hn H. apply step_frame_next_tasks_ok. split; assumption. Qed.

  (* Running task t to its next suspension. [J] is what is known of its remaining stack and pending signal, [own] the
     states that may be written back into its table entry; the conclusion may be weaker than [tasks_ok] where running
     out of fuel is concerned. *)
  Lemma exec_tasks_rule t (own : tstate frame -> Prop) (J : list frame -> signal -> Prop) (R : mstate -> Prop) :
    (forall x ts, t_id x = t -> own ts -> TP x -> TP (with_ts x ts)) ->
    (forall sg, J [] sg -> own (TDone sg)) ->
    (forall fr rest sg st, J (fr :: rest) sg ->
                           match snd (step_frame P t fr sg st) with
                           | DSuspend w k' => own (TWait w (k' ++ rest))
                           | DYield k' => own (TReady (k' ++ rest) SGo)
                           | DCont k' sg' => J (k' ++ rest) sg'
                           | DRet sg' => J rest sg'
                           end) ->
    (forall st, tasks_ok TP st -> R st) -> (forall st, tasks_ok TP st -> R (abort P st)) ->
    forall fuel k sg st, 1 <= st_next st -> tasks_ok TP st -> J k sg -> R (exec P fuel t k sg st).
  Proof.
    intros Hupd Hdone Hstep HR Hab fuel k sg st N0 H0 J0.
    assert (W : forall s ts, own ts -> forall x, find_task t (st_tasks s) = Some x -> TP x -> TP (with_ts x ts)).
    { intros s ts Ho x Hx. apply Hupd; [apply (find_task_in _ _ _ Hx)|exact Ho]. }
    apply (exec_rule P t (fun k sg s => (1 <= st_next s /\ tasks_ok TP s) /\ J k sg) R); [| |auto].
    - intros sg' s [[_ Hs] HJ]. apply HR, ok_set_tstate; [exact Hs|]. apply (W s), Hdone, HJ.
    - intros fr rest sg' s [Hs HJ]. split; [apply Hab, Hs|].
      pose proof (step_frame_next_tasks_ok t fr sg' s Hs) as Hs1. specialize (Hstep fr rest sg' s HJ).
      destruct (step_frame P t fr sg' s) as [st1 [w k'|k'|k' sg''|sg'']]; cbn [fst snd] in *; auto.
      + apply HR, ok_suspend; [apply Hs1|]. apply (W st1), Hstep.
      + apply HR, ok_push_ready, ok_set_tstate; [apply Hs1|]. apply (W st1), Hstep.
  Qed.

  Lemma exec_tasks_other t (R : mstate -> Prop) :
    (forall x ts, t_id x = t -> TP (with_ts x ts)) ->
    (forall st, tasks_ok TP st -> R st) -> (forall st, tasks_ok TP st -> R (abort P st)) ->
    forall fuel k sg st, 1 <= st_next st -> tasks_ok TP st -> R (exec P fuel t k sg st).
  Proof.
    intros Hfree HR Hab fuel k sg st N0 H0. apply (exec_tasks_rule t (fun _ => True) (fun _ _ => True) R); auto.
    intros fr rest sg' s _. destruct (snd (step_frame P t fr sg' s)); exact I.
  Qed.

  Lemma complete_gate_tasks_ok g st : tasks_ok TP st -> tasks_ok TP (complete_gate g st).
  Proof. apply ok_wake_all. exact TP_wake. Qed.
End PerTaskStep.

Section RelStep.
  Variable P : prog.
  Variable Rel : mstate -> mstate -> Prop.
  Hypothesis Rel_refl : forall st, Rel st st.
  Hypothesis Rel_trans : forall a b c, Rel a b -> Rel b c -> Rel a c.
  Hypothesis R_emit_obs : forall o st, Rel st (emit_obs o st).
  Hypothesis R_with_store : forall f st, Rel st (with_store f st).
  Hypothesis R_bump : forall c st, Rel st (bump c st).
  Hypothesis R_set_adddata : forall k v st, Rel st (set_adddata k v st).
  Hypothesis R_push_ready : forall t st, Rel st (push_ready t st).
  Hypothesis R_set_waiters : forall w st, Rel st (set_waiters w st).
  Hypothesis R_set_tstate : forall t ts st, Rel st (set_tstate t ts st).
  Hypothesis R_spawn : forall nm h k st, Rel st (fst (spawn nm h k st)).
  Hypothesis R_add_event : forall n st, Rel st (add_event n st).
  Hypothesis R_dequeue : forall st, Rel st (dequeue st).
  Hypothesis R_abort : forall st, Rel st (abort P st).

  (* one more primitive, H, after what the goal's left-hand side has reached *)
  Ltac rstep H := eapply Rel_trans; [|apply H].

  Lemma R_wake_all w sg st0 st : Rel st0 st -> Rel st0 (wake_all w sg st).
  Proof.
    intros H. apply wake_all_rule; [|rstep R_set_waiters; exact H]. intros. rstep R_push_ready. rstep R_set_tstate. assumption.
  Qed.

  Lemma R_cancel_task t st0 st : Rel st0 st -> Rel st0 (cancel_task t st).
  Proof.
    intros H. unfold cancel_task. destruct (find_task t (st_tasks st)) as [[i nm [k s|w k|r] h]|]; try exact H.
    - rstep R_set_tstate. exact H.
    - rstep R_push_ready. rstep R_set_tstate. rstep R_set_waiters. exact H.
  Qed.

  Lemma R_suspend t w k st0 st : Rel st0 st -> Rel st0 (suspend t w k st).
  Proof. intros H. unfold suspend. rstep R_set_waiters. rstep R_set_tstate. exact H. Qed.

  Lemma R_add_event_from st0 n st : Rel st0 st -> Rel st0 (add_event n st).
  Proof. intros H. rstep R_add_event. exact H. Qed.

  Lemma R_notify c st0 st : Rel st0 st -> Rel st0 (notify c st).
  Proof. apply R_wake_all. Qed.
  Lemma R_notify_keys ks st0 st : Rel st0 st -> Rel st0 (notify_keys ks st).
  Proof. exact (inv_notify_keys (Rel st0) (fun w s => R_wake_all w SGo st0 s) ks st). Qed.
  Lemma R_set_event n st0 st : Rel st0 st -> Rel st0 (set_event n st).
  Proof. exact (inv_set_event (Rel st0) (R_add_event_from st0) (fun w s => R_wake_all w SGo st0 s) n st). Qed.
  Lemma R_cancel_tasks ts st0 st : Rel st0 st -> Rel st0 (cancel_tasks ts st).
  Proof. exact (inv_cancel_tasks (Rel st0) (fun t s => R_cancel_task t st0 s) ts st). Qed.
  Lemma R_finally_a n st0 st : Rel st0 st -> Rel st0 (finally_a n st).
  Proof. exact (inv_finally_a (Rel st0) (R_add_event_from st0) (fun w s => R_wake_all w SGo st0 s) n st). Qed.
  Lemma R_finally_b d n st0 st : Rel st0 st -> Rel st0 (finally_b P d n st).
  Proof. exact (inv_finally_b P (Rel st0) (R_add_event_from st0) (fun w s => R_wake_all w SGo st0 s) d n st). Qed.
  Lemma R_fold_hide (l : list key) st0 st : Rel st0 st -> Rel st0 (fold_left (fun s k => emit_obs (OHide k) s) l st).
  Proof. apply (inv_fold_hide (Rel st0)). intros o s H. eapply Rel_trans; [exact H|apply R_emit_obs]. Qed.

  Lemma R_step_frame t fr sg st : Rel st (fst (step_frame P t fr sg st)).
  Proof.
    apply (inv_step_frame P (Rel st)); [..|apply Rel_refl]; intros.
    - rstep R_emit_obs. assumption.
    - rstep R_with_store. assumption.
    - rstep R_bump. assumption.
    - rstep R_set_adddata. assumption.
    - rstep R_add_event. assumption.
    - apply R_wake_all. assumption.
    - apply R_cancel_task. assumption.
    - rstep R_spawn. assumption.
  Qed.

  Lemma R_exec fuel t k sg st0 st : Rel st0 st -> Rel st0 (exec P fuel t k sg st).
  Proof.
    intros H. apply (exec_rule P t (fun _ _ s => Rel st0 s) (fun s => Rel st0 s)); [| |exact H].
    - intros sg' s Hs. rstep R_set_tstate. exact Hs.
    - intros fr rest sg' s Hs. split; [rstep R_abort; exact Hs|].
      pose proof (Rel_trans _ _ _ Hs (R_step_frame t fr sg' s)) as Hstep.
      destruct (step_frame P t fr sg' s) as [st1 [w k'|k'|k' sg''|sg'']]; cbn [fst] in Hstep; try exact Hstep.
      + apply R_suspend. exact Hstep.
      + rstep R_push_ready. rstep R_set_tstate. exact Hstep.
  Qed.

  Lemma R_loop_step st : Rel st (loop_step P st).
  Proof.
    rewrite loop_step_unfold. destruct (st_ready st) as [|t rest]; [apply Rel_refl|].
    destruct (find_task t (st_tasks st)) as [x|]; [|apply R_dequeue].
    destruct (t_state x) as [k sg|w k|r]; try apply R_dequeue. apply R_exec. apply R_dequeue.
  Qed.

  Lemma R_action a st : Rel st (apply_action P a st).
  Proof.
    destruct a as [| |g|]; cbn [apply_action].
    - apply R_loop_step.
    - apply (quiesce_rule P (Rel st)); [|apply Rel_refl]. intros s H. rstep R_loop_step. exact H.
    - apply R_wake_all, Rel_refl.
    - apply R_cancel_task, Rel_refl.
  Qed.

  Lemma R_sched sched st : Rel st (fold_left (fun s a => apply_action P a s) sched st).
  Proof.
    revert st; induction sched as [|a r IH]; intros st; cbn [fold_left]; [apply Rel_refl|].
    eapply Rel_trans; [apply R_action|apply IH].
  Qed.

  Lemma R_reachable st : reachable P st -> Rel (init_state) st.
  Proof. intros H. induction H as [|st a H IH]; [apply Rel_refl|]. eapply Rel_trans; [exact IH|apply R_action]. Qed.
End RelStep.

(* A relation that holds between states with the same storage, additional data, history and id counter holds across every primitive
   except [emit_obs], [with_store], [set_adddata] and [spawn]: across a step it is a question of the entries the step logs, the
   storage updates it makes and the tasks it creates only. *)
Section Inert.
  Variable P : prog.
  Variable Rel : mstate -> mstate -> Prop.
  Hypothesis Rel_trans : forall a b c, Rel a b -> Rel b c -> Rel a c.
  Hypothesis Rel_same :
    forall st st', st_store st' = st_store st -> st_adddata st' = st_adddata st -> st_trace st' = st_trace st -> st_next st' = st_next st -> Rel st st'.

  Lemma I_refl st : Rel st st. Proof. apply Rel_same; reflexivity. Qed.
  Lemma I_bump c st : Rel st (bump c st). Proof. apply Rel_same; reflexivity. Qed.
  Lemma I_push_ready t st : Rel st (push_ready t st). Proof. apply Rel_same; reflexivity. Qed.
  Lemma I_set_waiters w st : Rel st (set_waiters w st). Proof. apply Rel_same; reflexivity. Qed.
  Lemma I_set_tstate t ts st : Rel st (set_tstate t ts st). Proof. apply Rel_same; reflexivity. Qed.
  Lemma I_add_event n st : Rel st (add_event n st). Proof. apply Rel_same; reflexivity. Qed.
  Lemma I_dequeue st : Rel st (dequeue st). Proof. apply Rel_same; reflexivity. Qed.
  Lemma I_abort st : Rel st (abort P st). Proof. apply Rel_same; reflexivity. Qed.

  Definition I_wake_all := R_wake_all Rel Rel_trans I_push_ready I_set_waiters I_set_tstate.
  Definition I_notify := R_notify Rel Rel_trans I_push_ready I_set_waiters I_set_tstate.
  Definition I_notify_keys := R_notify_keys Rel Rel_trans I_push_ready I_set_waiters I_set_tstate.
  Definition I_set_event := R_set_event Rel Rel_trans I_push_ready I_set_waiters I_set_tstate I_add_event.
  Definition I_cancel_task := R_cancel_task Rel Rel_trans I_push_ready I_set_waiters I_set_tstate.
  Definition I_cancel_tasks := R_cancel_tasks Rel Rel_trans I_push_ready I_set_waiters I_set_tstate.
  Definition I_finally_a := R_finally_a Rel Rel_trans I_push_ready I_set_waiters I_set_tstate I_add_event.
  Definition I_finally_b := R_finally_b P Rel Rel_trans I_push_ready I_set_waiters I_set_tstate I_add_event.
  Definition I_suspend := R_suspend Rel Rel_trans I_set_waiters I_set_tstate.
End Inert.

(* Peels the primitives off a goal [Rel st0 (prim (... st0))], given the two facts above about Rel; [cond] is to solve, or reduce to
   its side condition, a goal [Rel _ (prim st)] for one of the primitives that are left. *)
Ltac inert_prims tr sm cond :=
  repeat first
         [ apply (I_refl _ sm)
         | apply (I_notify _ tr sm) | apply (I_notify_keys _ tr sm) | apply (I_set_event _ tr sm) | apply (I_cancel_tasks _ tr sm)
         | apply (I_cancel_task _ tr sm) | apply (I_finally_a _ tr sm) | apply (I_finally_b _ _ tr sm) | apply (I_wake_all _ tr sm)
         | (eapply tr; [|apply (I_bump _ sm)]) | (eapply tr; [|apply (I_push_ready _ sm)])
         | (eapply tr; [|cond]) ].

Section Grows.
  Variable Q : obs -> Prop.
  Definition grows (st st' : mstate) : Prop := exists new, st_trace st' = new ++ st_trace st /\ forall o, In o new -> Q o.

  Lemma grows_trans a b c : grows a b -> grows b c -> grows a c.
  Proof.
    intros [n1 [E1 H1]] [n2 [E2 H2]]. exists (n2 ++ n1). rewrite E2, E1, app_assoc. split; [reflexivity|].
    intros o Ho. apply in_app_or in Ho. destruct Ho; auto.
  Qed.
  Lemma grows_same st st' :
    st_store st' = st_store st -> st_adddata st' = st_adddata st -> st_trace st' = st_trace st -> st_next st' = st_next st -> grows st st'.
  Proof. intros _ _ E _. exists []. rewrite E. split; [reflexivity|intros o []]. Qed.
  Lemma grows_with_store f st : grows st (with_store f st). Proof. exists []. split; [reflexivity|intros o []]. Qed.
  Lemma grows_set_adddata k v st : grows st (set_adddata k v st). Proof. exists []. split; [reflexivity|intros o []]. Qed.
  Lemma grows_emit o st : Q o -> grows st (emit_obs o st).
  Proof. intros H. exists [o]. split; [reflexivity|]. intros o' [<-|[]]. exact H. Qed.
  Lemma grows_spawn nm h k st : Q (OSpawn (st_next st) nm) -> grows st (fst (spawn nm h k st)).
  Proof. intros H. exists [OSpawn (st_next st) nm]. split; [reflexivity|]. intros o' [<-|[]]. exact H. Qed.
  Lemma grows_fold_hide (l : list key) st0 st :
    (forall k, In k l -> Q (OHide k)) -> grows st0 st -> grows st0 (fold_left (fun s k => emit_obs (OHide k) s) l st).
  Proof.
    revert st. induction l as [|k r IH]; intros st Hl H; cbn [fold_left]; [exact H|].
    apply IH; [intros k' Hk'; apply Hl; right; exact Hk'|]. eapply grows_trans; [exact H|]. apply grows_emit. apply Hl. left. reflexivity.
  Qed.
End Grows.

(* every entry a primitive appends leaves the goal [Q o] *)
Ltac grows_prims :=
  match goal with
  | |- grows ?Q _ _ =>
    inert_prims (grows_trans Q) (grows_same Q)
                ltac:(first [apply grows_with_store | apply grows_set_adddata | apply grows_spawn | apply grows_emit | apply grows_fold_hide])
  end.
