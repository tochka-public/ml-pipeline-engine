(* Plain programs, every schedule, while manager.run is pending: every stored result is the value that the retry / default policy
   of the node prescribes for its body applied to the (final) results of its declared inputs. Since that value is a function of
   the program alone, any two schedules store the same results (determinacy). *)
From MLPE Require Import Engine.Run Proofs.StackInv Proofs.PlainWorld Proofs.PlainStep Proofs.PlainLaunch Proofs.PlainLive Proofs.Micro Proofs.PlainBase Proofs.PlainCore Proofs.PlainInv Proofs.StackAll Proofs.PlainRoles Proofs.PlainExec Proofs.PlainTasks Proofs.PlainArgs.

(* the retry loop of __execute_node as a relation: started at attempt att (1-based) it ends with r *)
Inductive rr (nd : nspec) (o : nat -> outcome) : nat -> rresult -> Prop :=
| rr_ret att v : retry_decide nd (o att) att = RDReturn v -> rr nd o att (RRVal v)
| rr_default att c : retry_decide nd (o att) att = RDFinal c -> ns_default nd = true -> rr nd o att RRDefault
| rr_raise att c : retry_decide nd (o att) att = RDFinal c -> ns_default nd = false -> rr nd o att (RRRaise c att)
| rr_prop att c : retry_decide nd (o att) att = RDPropagate c -> rr nd o att (RRRaise c att)
| rr_retry att c r : retry_decide nd (o att) att = RDRetry c -> rr nd o (S att) r -> rr nd o att r.

Lemma rr_functional nd o att r : rr nd o att r -> forall r', rr nd o att r' -> r = r'.
Proof.
  induction 1 as [att v E|att c E D|att c E D|att c E|att c r E H IH]; intros r' H'; inversion H'; subst; try congruence.
  apply IH. assumption.
Qed.

(* it is the loop whose closed form C12 states: retry_run computes it *)
Lemma retry_run_rr nd o : forall fuel att r, snd (retry_run fuel nd o att) = Some r -> rr nd o att r.
Proof.
  induction fuel as [|f IH]; intros att r H; cbn [retry_run] in H; [discriminate H|].
  destruct (retry_decide nd (o att) att) as [v|c|c|c] eqn:E.
  - cbn in H. inversion H. apply rr_ret. exact E.
  - destruct (ns_default nd) eqn:D; cbn in H; inversion H; [eapply rr_default|eapply rr_raise]; eassumption.
  - destruct (retry_run f nd o (S att)) as [log r0] eqn:Er. cbn in H. subst r0. eapply rr_retry; [exact E|]. apply IH. rewrite Er. reflexivity.
  - cbn in H. inversion H. apply rr_prop. exact E.
Qed.

Definition retry_pos (f : frame) : option (kwargs * nat) :=
  match f with
  | FRetry _ _ kw att | FRetryAfterBody _ kw att => Some (kw, att)
  | FRetryAfterEmit _ kw att | FRetryAfterSleep _ kw att => Some (kw, S att)
  | _ => None
  end.
Definition carries_value (f : frame) : bool := match f with FExecAfterBody _ _ | FNodeAfterExec _ _ => true | _ => false end.

Section ValueSteps.
  Variable P : prog.

  Lemma plain_step_retry_pos t fr sg st f kw a :
    In f (dir_frames (snd (step_frame P t fr sg st))) -> retry_pos f = Some (kw, a) ->
    (exists d n fc, fr = FExecAfterStart d n fc /\ a = 1) \/ retry_pos fr = Some (kw, a) \/
    (exists j att c, fr = FRetryAfterBody j kw att /\ a = S att /\
                     retry_decide (nspec_of P j) (p_body P j kw (Nat.pred att)) att = RDRetry c).
  Proof.
    intros Hin Hr. destruct (step_pushed P t fr sg st f Hin) as [k' [Hp Hf]].
    destruct Hp; cbn [In] in Hf; repeat (destruct Hf as [<-|Hf]); try contradiction; try discriminate Hr; inversion Hr; subst; eauto 12.
  Qed.

  Lemma plain_step_push_ok t fr sg st d n v :
    In (FExecAfterOk d n v) (dir_frames (snd (step_frame P t fr sg st))) -> fr = FExecAfterBody d n /\ sg = SVal v.
  Proof.
    intros Hin. destruct (step_pushed P t fr sg st _ Hin) as [k' [Hp Hf]].
    destruct Hp; cbn [In] in Hf; repeat (destruct Hf as [Hf|Hf]; [try discriminate Hf|]); try contradiction. inversion Hf; subst. auto.
  Qed.

  Lemma plain_step_ret_val t fr sg st v :
    plain_frame P fr = true -> clean_sig sg -> PS st -> snd (step_frame P t fr sg st) = DRet (SVal v) ->
    (exists j kw att, fr = FRetryAfterBody j kw att /\
        (retry_decide (nspec_of P j) (p_body P j kw (Nat.pred att)) att = RDReturn v \/
         exists c, retry_decide (nspec_of P j) (p_body P j kw (Nat.pred att)) att = RDFinal c /\ ns_default (nspec_of P j) = true /\ v = VDef j kw))
    \/ (exists d n, fr = FExecAfterOk d n v)
    \/ (cls_of fr <> KRetry /\ cls_of fr <> KExec).
  Proof.
    intros Hf Hs Hst. rewrite (step_dir P t fr sg st Hf Hs Hst).
    plain_cases fr sg Hf Hs; cbn [snd cls_of]; intros H; try discriminate H; inversion H; subst;
      try (right; right; split; discriminate); eauto 12.
  Qed.

  Lemma plain_step_cont_go t fr sg st k' s' :
    plain_frame P fr = true -> clean_sig sg -> PS st -> snd (step_frame P t fr sg st) = DCont k' s' -> forall v, s' <> SVal v.
  Proof.
    intros Hf Hs Hst. rewrite (step_dir P t fr sg st Hf Hs Hst).
    plain_cases fr sg Hf Hs; cbn [snd]; intros H; try discriminate H; inversion H; intros v0; discriminate.
  Qed.
End ValueSteps.

Section ValueInv.
  Variable P : prog.
  Notation G := (b_graph (build (p_decls P) (p_inp P) (p_out P))).
  Hypothesis Hsw : forall n, is_switch G n = false.
  Hypothesis Hhd : forall n, is_head G n = false.
  Hypothesis Hbody : forall i kw a v, p_body P i kw a = OVal v -> clean v = true.
  Notation order := (p_order P (maind P)).
  Hypothesis Hnd : NoDup order.

  Definition body_of (m : key) (kw : kwargs) : nat -> outcome := fun a => p_body P (real_index m) kw (Nat.pred a).
  Definition spec_m (m : key) : nspec := nspec_of P (real_index m).
  Definition result_ok (m : key) (kw : kwargs) (v : value) : Prop :=
    rr (spec_m m) (body_of m kw) 1 (RRVal v) \/ (rr (spec_m m) (body_of m kw) 1 RRDefault /\ v = VDef (real_index m) kw).
  Definition okv (st : mstate) (m : key) (v : value) : Prop := exists kw, node_kwargs P st m = Some kw /\ result_ok m kw v.

  Lemma result_ok_functional m kw v v' : result_ok m kw v -> result_ok m kw v' -> v = v'.
  Proof.
    intros [H|[H E]] [H'|[H' E']].
    - pose proof (rr_functional _ _ _ _ H _ H') as X. inversion X. reflexivity.
    - pose proof (rr_functional _ _ _ _ H _ H') as X. discriminate X.
    - pose proof (rr_functional _ _ _ _ H _ H') as X. discriminate X.
    - congruence.
  Qed.

  Definition PhiV (st : mstate) : idt -> tstate frame -> Prop :=
    on_node (fun m ts =>
      (forall f kw a, In f (estack ts) -> retry_pos f = Some (kw, a) ->
                      forall r, rr (spec_m m) (body_of m kw) a r -> rr (spec_m m) (body_of m kw) 1 r) /\
      (forall d n v, In (FExecAfterOk d n v) (estack ts) -> okv st m v) /\
      (forall f r v, ts = TReady (f :: r) (SVal v) -> carries_value f = true -> okv st m v) /\
      (exists_result m (st_store st) = true -> okv st m (get_result m true (st_store st))) /\
      (forall p, In p (preds G m) -> exists_result p (st_store st) = true)).

  Definition valuesI (st : mstate) (c : running) : Prop := guard st \/ allT (PhiV st) st c.

  Lemma okv_ext a b m v : same_core a b -> okv a m v -> okv b m v.
  Proof.
    intros (A & _ & _ & _ & _ & B) [kw [H1 H2]]. exists kw. split; [|exact H2].
    rewrite (node_kwargs_ext P Hsw a b m); [exact H1|intros; rewrite A; reflexivity|exact B].
  Qed.

  Lemma PhiV_wake st : wake_closed (PhiV st).
  Proof.
    intros i w k H m Hm. destruct (H m Hm) as (A & B & C & D & E). cbn [estack] in *. split; [|split; [|split; [|split]]].
    - intros f kw a Hf Hp. exact (A f kw a Hf Hp).
    - intros d n v Hin. exact (B d n v Hin).
    - intros f r v Hs _. discriminate Hs.
    - exact D.
    - exact E.
  Qed.
  Lemma PhiV_ext a b i ts : same_core a b -> PhiV a i ts -> PhiV b i ts.
  Proof.
    intros E H m Hm. destruct (H m Hm) as (H1 & H2 & H3 & H4 & H5). rewrite (sc_store _ _ E). split; [|split; [|split; [|split]]].
    - exact H1.
    - intros d n v Hin. apply (okv_ext a); auto. exact (H2 d n v Hin).
    - intros f r v Hs Hc. apply (okv_ext a); auto. exact (H3 f r v Hs Hc).
    - intros Hr. apply (okv_ext a); auto.
    - exact H5.
  Qed.

  Lemma owner_eab m d n : owner (TNNode m) (FExecAfterBody d n) = true -> n = m.
  Proof. cbn. intros H. apply key_eqb_spec in H. exact H. Qed.

  Lemma valuesA_step st t fr rest sg :
    base P st (Some (t, fr :: rest, sg)) ->
    allT (PhiR P st) st (Some (t, fr :: rest, sg)) ->
    NoDup (node_names (fst (step_frame P t fr sg st))) ->
    globA P st -> allT (PhiA P st) st (Some (t, fr :: rest, sg)) ->
    allT (PhiV st) st (Some (t, fr :: rest, sg)) ->
    leaves_run fr sg (snd (step_frame P t fr sg st)) = false ->
    allT (PhiV (fst (step_frame P t fr sg st)))
         (fst (after_step t rest (step_frame P t fr sg st))) (snd (after_step t rest (step_frame P t fr sg st))).
  Proof.
    intros Hb HA Hnd1 (_ & A1 & _) HAa HV Hlr.
    destruct (base_running P _ _ _ _ _ Hb) as (x0 & Hf0 & Hin0 & Hid0 & Kf & Kr & Hs & Of & Or & Hc).
    pose proof (b_ps _ _ _ Hb) as Hps.
    destruct (plain_step_summary P t fr sg st Kf Hs Hps) as (_ & _ & Had).
    destruct (results_final_step P st t fr rest sg Hb HAa) as (F12 & Hsto & F3).
    assert (Hstab : forall m v, (forall p, In p (preds G m) -> exists_result p (st_store st) = true) ->
                                okv st m v -> okv (fst (step_frame P t fr sg st)) m v).
    { intros m v Hp [kw [H1 H2]]. exists kw. split; [|exact H2].
      rewrite (node_kwargs_ext P Hsw st _ m); [exact H1|intros p Hpp; apply F12, Hp, Hpp|exact Had]. }
    apply (allT_node_step P Hsw Hhd _ _ st t fr rest sg Hb Hnd1 Hlr HV (PhiV_wake st)).
    -
      intros m Hm. destruct (creates_node P Hnd st t fr rest sg m Hb HA Hm) as (Hrd & Hnot & _). split; [|split; [|split; [|split]]].
      + intros f kw a [<-|[]] Hp. discriminate Hp.
      + intros d n0 v [Hx|[]]. discriminate Hx.
      + intros f r1 v Hx _. discriminate Hx.
      + intros Hr. destruct (Hnot (A1 m Hr)).
      + apply (is_ready_true P Hsw Hhd _ _ Hrd).
    -
      intros nm m ts Onm _ Hne _ (B1 & B2 & B3 & B4 & B5). split; [exact B1|]. split; [|split; [|split]].
      + intros d n v Hin. exact (Hstab m v B5 (B2 d n v Hin)).
      + intros f r v Hts Hcv. exact (Hstab m v B5 (B3 f r v Hts Hcv)).
      + rewrite (other_node_result P t fr sg st nm m Kf Hs Hps Onm Hne). intros Hr. destruct (F12 m Hr) as [_ ->]. exact (Hstab m _ B5 (B4 Hr)).
      + intros p Hp. apply F12, B5, Hp.
    -
      intros m Om Orm Hm. destruct (Hm _ HV) as (V1 & V2 & V3 & V4 & V5). destruct (Hm _ HAa) as (Z1 & _ & _). cbn [estack] in V1, V2, Z1.
      rewrite estack_nstate. split; [|split; [|split; [|split]]].
      +
        intros f kw a Hf Hp. apply in_app_or in Hf. destruct Hf as [Hf|Hf]; [|exact (V1 f kw a (or_intror Hf) Hp)].
        destruct (plain_step_retry_pos P t fr sg st f kw a Hf Hp) as [[d [n [fc [_ ->]]]]|[Hfr|[j [att [c [-> [-> Hdec]]]]]]].
        * intros r Hr. exact Hr.
        * exact (V1 fr kw a (or_introl eq_refl) Hfr).
        * intros r Hr. apply (V1 _ kw att (or_introl eq_refl) eq_refl).
          destruct (Z1 _ j kw (or_introl eq_refl) eq_refl) as [Ej _]. subst j.
          eapply rr_retry; [exact Hdec|exact Hr].
      +
        intros d n v Hin. apply Hstab; [exact V5|]. apply in_app_or in Hin. destruct Hin as [Hin|Hin]; [|exact (V2 d n v (or_intror Hin))].
        destruct (plain_step_push_ok P t fr sg st d n v Hin) as [-> ->]. exact (V3 _ rest v eq_refl eq_refl).
      +
        intros f r v Hn Hcv.
        destruct (snd (step_frame P t fr sg st)) as [w k'|k'|k' s'|s'] eqn:Ed; cbn [nstate] in Hn.
        * discriminate Hn.
        * inversion Hn.
        * exfalso. destruct (k' ++ rest); [discriminate Hn|]. injection Hn as _ _ Es. rewrite Es in Ed. exact (plain_step_cont_go P t fr sg st k' (SVal v) Kf Hs Hps Ed v eq_refl).
        * destruct rest as [|g rest']; [discriminate Hn|]. injection Hn as Ef Er Es. subst f r. rewrite Es in Ed. clear Es.
          assert (Haw : awaits_b g (cls_of fr) = true) by (cbn [chainb] in Hc; apply andb_true_iff in Hc; apply Hc).
          apply Hstab; [exact V5|].
          destruct (plain_step_ret_val P t fr sg st v Kf Hs Hps Ed) as [[j [kw [att [-> Hdec]]]]|[[d [n ->]]|[Hnr Hne]]].
          --
             destruct (Z1 _ j kw (or_introl eq_refl) eq_refl) as [Ej Hkw]. subst j. exists kw. split; [exact Hkw|].
             pose proof (V1 _ kw att (or_introl eq_refl) eq_refl) as Hto1.
             destruct Hdec as [Hdec|[c [Hdec [Hdef ->]]]].
             ++ left. apply Hto1. apply rr_ret. exact Hdec.
             ++ right. split; [|reflexivity]. apply Hto1. eapply rr_default; eassumption.
          -- exact (V2 d n v (or_introl eq_refl)).
          -- exfalso. destruct g; try discriminate Hcv; cbn in Haw; destruct (cls_of fr); try discriminate Haw; contradiction.
      +
        intros Hr. apply Hstab; [exact V5|]. destruct (exists_result m (st_store st)) eqn:Er.
        * destruct (F12 m Er) as [_ ->]. exact (V4 eq_refl).
        * destruct (F3 m Hr Er) as [d [v [-> ->]]]. destruct (Hsto d m v eq_refl eq_refl) as (_ & _ & _ & -> & _). exact (V3 _ rest v eq_refl eq_refl).
      + intros p Hp. apply F12, V5, Hp.
  Qed.

  Theorem creach_values : forall st c, creach P st c -> valuesI st c.
  Proof.
    apply (creach_guarded_tasks P Hsw Hhd Hbody PhiV PhiV_ext PhiV_wake).
    - intros st k s _ m Hm. discriminate Hm.
    - intros st w k _ m Hm. discriminate Hm.
    - intros m Hm. discriminate Hm.
    - intros st t fr rest sg H Hg0 Hg1 Hlr HV.
      destruct (unguard _ _ (creach_roles P Hsw Hhd Hbody _ _ H) Hg0) as [_ HA].
      destruct (unguard _ _ (creach_args P Hsw Hhd Hbody Hnd _ _ H) Hg0) as [GA HAa].
      apply valuesA_step; try assumption; [exact (creach_base P Hsw Hhd Hbody _ _ H)|exact (nodup_next P Hsw Hhd Hbody Hnd st t fr rest sg H Hg1)].
  Qed.
End ValueInv.

Section Determinacy.
  Variable P : prog.
  Notation G := (b_graph (build (p_decls P) (p_inp P) (p_out P))).
  Hypothesis HP : plain_prog P.
  Notation order := (p_order P (maind P)).
  Hypothesis Hnd : NoDup order.
  Hypothesis Htopo : forall n p a b, order = a ++ n :: b -> In p (preds G n) -> In p a.

  Definition pending (st : mstate) : Prop := over st = false /\ main_done st = false.

  (* stated for configurations: the states inside a loop iteration included *)
  Theorem plain_results_are_prescribed_c st c m :
    creach P st c -> pending st -> exists_result m (st_store st) = true ->
    okv P st m (get_result m true (st_store st)) /\ In m order /\ forall p, In p (preds G m) -> exists_result p (st_store st) = true.
  Proof.
    destruct HP as (Hg & Hb & _). destruct (graph_plain_sound _ Hg) as [Hsw Hhd].
    intros Hc [Ho Hm] Hres.
    destruct (creach_values P Hsw Hhd Hb Hnd st c Hc) as [[Hg'|Hg']|HV]; [congruence|congruence|].
    destruct (creach_args P Hsw Hhd Hb Hnd st c Hc) as [[Hg'|Hg']|[(_ & A1 & _) _]]; [congruence|congruence|].
    destruct (creach_roles P Hsw Hhd Hb st c Hc) as [[Hg'|Hg']|[HG HA]]; [congruence|congruence|].
    pose proof (A1 m Hres) as Hin. pose proof Hin as Hin'. apply node_names_in in Hin. unfold names in Hin. apply in_map_iff in Hin. destruct Hin as [x [Hnm Hx]].
    destruct (allT_In _ _ _ x HV Hx m Hnm) as (_ & _ & _ & V4 & V5).
    split; [exact (V4 Hres)|]. split; [exact (roles_in_order P st c m HG HA Hin')|exact V5].
  Qed.

  Theorem plain_results_are_schedule_independent_c st1 c1 st2 c2 :
    creach P st1 c1 -> pending st1 -> creach P st2 c2 -> pending st2 ->
    forall m, exists_result m (st_store st1) = true -> exists_result m (st_store st2) = true ->
              get_result m true (st_store st1) = get_result m true (st_store st2).
  Proof.
    intros Hr1 Hp1 Hr2 Hp2.
    destruct HP as (Hg & Hb & _). destruct (graph_plain_sound _ Hg) as [Hsw Hhd].
    assert (Had : st_adddata st1 = [] /\ st_adddata st2 = []).
    { destruct Hp1 as [O1 M1]. destruct Hp2 as [O2 M2].
      destruct (creach_args P Hsw Hhd Hb Hnd st1 c1 Hr1) as [[Hg'|Hg']|[(A0 & _) _]]; [congruence|congruence|].
      destruct (creach_args P Hsw Hhd Hb Hnd st2 c2 Hr2) as [[Hg'|Hg']|[(B0 & _) _]]; [congruence|congruence|]. auto. }
    destruct Had as [Had1 Had2].
    assert (K : forall l suf, order = l ++ suf -> forall m, In m l -> exists_result m (st_store st1) = true -> exists_result m (st_store st2) = true ->
                              get_result m true (st_store st1) = get_result m true (st_store st2)).
    { induction l as [|m0 l IH] using rev_ind; intros suf E m Hm R1 R2; [contradiction|].
      apply in_app_or in Hm. destruct Hm as [Hm|[<-|[]]].
      - apply (IH ([m0] ++ suf)); [rewrite E, <- app_assoc; reflexivity|exact Hm|exact R1|exact R2].
      - destruct (plain_results_are_prescribed_c st1 c1 m0 Hr1 Hp1 R1) as ([kw1 [K1 O1]] & _ & P1).
        destruct (plain_results_are_prescribed_c st2 c2 m0 Hr2 Hp2 R2) as ([kw2 [K2 O2]] & _ & P2).
        assert (Ekw : node_kwargs P st2 m0 = node_kwargs P st1 m0).
        { apply (node_kwargs_ext P Hsw); [|rewrite Had1, Had2; reflexivity].
          intros p Hp. symmetry. apply (IH ([m0] ++ suf)); [rewrite E, <- app_assoc; reflexivity| |apply P1; exact Hp|apply P2; exact Hp].
          apply (Htopo m0 p l suf); [rewrite E, <- app_assoc; reflexivity|exact Hp]. }
        rewrite K1, K2 in Ekw. inversion Ekw; subst kw2. exact (result_ok_functional P m0 kw1 _ _ O1 O2). }
    intros m R1 R2. destruct (plain_results_are_prescribed_c st1 c1 m Hr1 Hp1 R1) as (_ & Hin & _).
    apply (K order []); [rewrite app_nil_r; reflexivity|exact Hin|exact R1|exact R2].
  Qed.

  Corollary plain_results_are_prescribed st m :
    reachable P st -> pending st -> exists_result m (st_store st) = true ->
    okv P st m (get_result m true (st_store st)) /\ In m order /\ forall p, In p (preds G m) -> exists_result p (st_store st) = true.
  Proof. intros Hr. apply plain_results_are_prescribed_c with (c := None). apply reachable_creach. exact Hr. Qed.

  Corollary plain_results_are_schedule_independent st1 st2 :
    reachable P st1 -> pending st1 -> reachable P st2 -> pending st2 ->
    forall m, exists_result m (st_store st1) = true -> exists_result m (st_store st2) = true ->
              get_result m true (st_store st1) = get_result m true (st_store st2).
  Proof.
    intros H1 P1 H2 P2. apply (plain_results_are_schedule_independent_c st1 None st2 None); try assumption; apply reachable_creach; assumption.
  Qed.
End Determinacy.
