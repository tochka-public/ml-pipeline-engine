(* ALL programs, every schedule: what is handed to the artifact store is never a Recurrent marker and never a contained failure
   (C19): the frame that calls the store is pushed only for a result that is neither, and only that frame reports a save.  And
   what is saved for a node is a value that was stored as its result before (creach_saved_is_stored). *)
From MLPE Require Import Engine.Run Proofs.ExecLemmas Proofs.Micro Proofs.PlainLive Proofs.PlainCore Proofs.StackAll.

Definition savef (f : frame) : bool := match f with FSave _ v _ _ => negb (is_rec v || is_exn v) | _ => true end.

Section SavesAll.
  Variable P : prog.

  Lemma step_savef t fr sg st f : savef fr = true -> In f (dir_frames (snd (step_frame P t fr sg st))) -> savef f = true.
  Proof.
    intros Hf Hin. destruct (step_pushed P t fr sg st f Hin) as [k' [Hp Hk]].
    destruct Hp; cbn [In] in Hk; repeat (destruct Hk as [<-|Hk]); try contradiction; cbn [savef] in *; try reflexivity; try exact Hf.
    (* the store is called only on the branch for a result that is neither a marker nor a failure *)
    apply negb_true_iff. assumption.
  Qed.

  Definition sv_TP (x : task frame) : Prop := forall f, In f (estack (t_state x)) -> savef f = true.
  Definition saves_clean (tr : list obs) : Prop := forall n v, In (OSave n v) tr -> is_rec v = false /\ is_exn v = false.

  Theorem creach_saves_all : forall st c, creach P st c ->
    tasks_ok sv_TP st /\ (match c with Some (_, k, _) => forall f, In f k -> savef f = true | None => True end) /\ saves_clean (st_trace st).
  Proof.
    apply (creach_frames_inv P (fun _ f => savef f = true) saves_clean); auto.
    - intros n v [Hin|[]]. discriminate Hin.
    - intros st t fr rest sg _ B C. destruct (step_obs P t fr sg st) as [new [Etr Hnew]]. split.
      + intros f [Hs|Hin]; [apply spawns_spawn_frame in Hs; destruct f; try discriminate Hs; reflexivity|].
        exact (step_savef t fr sg st f (B fr (or_introl eq_refl)) Hin).
      + rewrite Etr. intros n v Hin. apply in_app_or in Hin. destruct Hin as [Hin|Hin]; [|exact (C n v Hin)].
        destruct (Hnew _ Hin) as [k ->]. specialize (B _ (or_introl eq_refl)). cbn [savef] in B.
        apply negb_true_iff, orb_false_iff in B. exact B.
  Qed.
End SavesAll.


Definition save_of (f : frame) : option (key * value) := match f with FSave n v _ _ => Some (n, v) | _ => None end.

Section SavedIsStored.
  Variable P : prog.

  Definition stored_before (tr : list obs) (k : list frame) : Prop :=
    forall f n v, In f k -> save_of f = Some (n, v) -> In (OSetResult n v) tr.

  Lemma step_save_origin t fr sg st f n v :
    In f (dir_frames (snd (step_frame P t fr sg st))) -> save_of f = Some (n, v) ->
    save_of fr = Some (n, v) \/ In (OSetResult n v) (st_trace (fst (step_frame P t fr sg st))).
  Proof.
    step_cases; unfold emit_frames; cbn [snd fst dir_frames]; intros Hin Hs;
      repeat (destruct Hin as [Hin|Hin]; [subst f; cbn [save_of] in Hs; try discriminate Hs; inversion Hs; subst;
                                          first [left; reflexivity | right; cbn [st_trace emit_obs]; left; reflexivity]|]); try contradiction.
  Qed.

  Definition ss_TP (tr : list obs) (x : task frame) : Prop := stored_before tr (estack (t_state x)).
  Definition save_after_store (tr : list obs) : Prop := forall a b n v, tr = a ++ OSave n v :: b -> In (OSetResult n v) b.

  Theorem creach_saved_is_stored : forall st c, creach P st c ->
    tasks_ok (ss_TP (st_trace st)) st /\ (match c with Some (_, k, _) => stored_before (st_trace st) k | None => True end)
    /\ save_after_store (st_trace st).
  Proof.
    set (Q := fun o b => match o with OSave n v => In (OSetResult n v) b | _ => True end).
    intros st c Hc.
    destruct (creach_frames_inv P (fun tr f => forall n v, save_of f = Some (n, v) -> In (OSetResult n v) tr) (after_each Q)) with (st := st) (c := c)
      as (A & B & C); auto.
    - intros new tr f Hf n v Hs. apply in_or_app. right. exact (Hf n v Hs).
    - intros n v Hs. discriminate Hs.
    - apply after_each_one. exact I.
    - intros st0 t fr rest sg _ B C. destruct (step_obs P t fr sg st0) as [new [Etr Hnew]]. split.
      + intros f [Hs|Hin] n v Hn; [apply spawns_spawn_frame in Hs; destruct f; discriminate|].
        destruct (step_save_origin t fr sg st0 f n v Hin Hn) as [Hfr|Hin']; [|exact Hin'].
        rewrite Etr. apply in_or_app. right. exact (B fr (or_introl eq_refl) n v Hfr).
      + rewrite Etr. apply after_each_app; [|exact C|].
        * intros [] b b'; cbn [Q]; auto. intros Hb. apply in_or_app. right. exact Hb.
        * intros o Ho. specialize (Hnew o Ho). destruct o; try exact I. destruct Hnew as [k ->].
          exact (B _ (or_introl eq_refl) n v eq_refl).
    - split; [unfold tasks_ok in *; eapply Forall_impl; [|exact A]; intros x Hx f n v Hf Hn; exact (Hx f Hf n v Hn)|].
      split; [destruct c as [[[t k] sg]|]; [intros f n v Hf Hn; exact (B f Hf n v Hn)|exact I]|].
      intros a b n v E. exact (C a _ b E).
  Qed.
End SavedIsStored.

Theorem no_marker_or_failure_is_saved_all_programs P :
  forall st, reachable P st -> forall n v, In (OSave n v) (st_trace st) -> is_rec v = false /\ is_exn v = false.
Proof. intros st Hr. destruct (creach_saves_all P st None (reachable_creach P st Hr)) as (_ & _ & C). exact C. Qed.

Theorem saved_value_was_stored_all_programs P :
  forall st, reachable P st -> forall a b n v, st_trace st = a ++ OSave n v :: b -> In (OSetResult n v) b.
Proof. intros st Hr. destruct (creach_saved_is_stored P st None (reachable_creach P st Hr)) as (_ & _ & C). exact C. Qed.
