(* ALL programs, every schedule: inside a pipeline the retry loop never goes beyond the configured number of attempts (C12):
   every position of the loop held by any task is at an attempt number between 1 and `attempts` (for policies with attempts >= 1
   after defaulting; negative values are outside the domain: C12_negative_attempts_diverge). *)
From MLPE Require Import Engine.Run Proofs.ExecLemmas Proofs.Micro Proofs.PlainLive Proofs.PlainCore Proofs.StackAll.
Require Import ZArith.

(* (node index, attempt number the loop is at or about to make) *)
Definition retry_at (f : frame) : option (nat * nat) :=
  match f with
  | FRetry i _ _ att | FRetryAfterBody i _ att => Some (i, att)
  | FRetryAfterEmit i _ att | FRetryAfterSleep i _ att => Some (i, S att)
  | _ => None
  end.

Section RetryAll.
  Variable P : prog.
  Hypothesis Hatt : forall i, (1 <= pol_attempts (nspec_of P i))%Z.

  Definition att_ok (f : frame) : Prop :=
    match retry_at f with Some (i, a) => 1 <= a /\ (Z.of_nat a <= pol_attempts (nspec_of P i))%Z | None => True end.
  Definition stack_att (k : list frame) : Prop := forall f, In f k -> att_ok f.

  Lemma step_att t fr sg st f : att_ok fr -> In f (dir_frames (snd (step_frame P t fr sg st))) -> att_ok f.
  Proof.
    intros Hfr Hin. destruct (step_pushed P t fr sg st f Hin) as [k' [Hp Hf]].
    destruct Hp; cbn [In] in Hf; repeat (destruct Hf as [<-|Hf]); try contradiction; unfold att_ok in *; cbn [retry_at] in *; try exact I; try exact Hfr.
    (* the first attempt: attempts >= 1 *)
    all: try (split; [lia|]; pose proof (Hatt (real_index n)); lia).
    (* a further attempt: the policy has just decided to retry, so the attempts made are fewer than `attempts` *)
    destruct Hfr as [H1 H2]; split; [lia|].
      match goal with Hd : retry_decide _ _ _ = RDRetry _ |- _ =>
        unfold retry_decide in Hd; repeat match type of Hd with context [match ?x with _ => _ end] => destruct x eqn:? end; try discriminate Hd end;
      match goal with Hq : (Z.of_nat _ =? _)%Z = false |- _ => apply Z.eqb_neq in Hq; lia end.
  Qed.

  Definition at_TP (x : task frame) : Prop := stack_att (estack (t_state x)).

  Theorem creach_attempts : forall st c, creach P st c ->
    tasks_ok at_TP st /\ (match c with Some (_, k, _) => stack_att k | None => True end).
  Proof.
    intros st c Hc. destruct (creach_frames_inv P (fun _ => att_ok) (fun _ => True)) with (st := st) (c := c) as (A & B & _); auto.
    - exact I.
    - intros st0 t fr rest sg _ B _. split; [|exact I]. intros f [Hs|Hin]; [|exact (step_att t fr sg st0 f (B fr (or_introl eq_refl)) Hin)].
      apply spawns_spawn_frame in Hs. destruct f; try discriminate Hs; exact I.
  Qed.
End RetryAll.

Theorem attempt_numbers_are_bounded_all_programs P :
  (forall i, (1 <= pol_attempts (nspec_of P i))%Z) ->
  forall st x f i a, reachable P st -> In x (st_tasks st) -> In f (estack (t_state x)) -> retry_at f = Some (i, a) ->
    1 <= a /\ (Z.of_nat a <= pol_attempts (nspec_of P i))%Z.
Proof.
  intros Hatt st x f i a Hr Hx Hf Hra. destruct (creach_attempts P Hatt st None (reachable_creach P st Hr)) as [A _].
  unfold tasks_ok in A. rewrite Forall_forall in A. specialize (A x Hx f Hf). unfold att_ok in A. rewrite Hra in A. exact A.
Qed.
