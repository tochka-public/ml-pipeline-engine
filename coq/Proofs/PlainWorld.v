(* Plain DAGs (no switch, no one-of head, bodies that never ask for another iteration): the part of the engine that such a
   program can reach. Every frame of every task is a "plain" frame over the one main DAG, every stored result and every value
   in flight is an ordinary value, nothing is ever hidden. For all schedules. *)
From MLPE Require Import Engine.Run Proofs.ExecLemmas Explore.StateEq Proofs.ProcessedInv.

Definition clean (v : value) : bool := negb (is_rec v) && negb (is_exn v).
Definition clean_sig (sg : signal) : Prop := match sg with SVal v => clean v = true | _ => True end.

Section Plain.
  Variable P : prog.
  Notation G := (b_graph (build (p_decls P) (p_inp P) (p_out P))).
  Notation inp := (b_input (build (p_decls P) (p_inp P) (p_out P))).
  Notation out := (b_output (build (p_decls P) (p_inp P) (p_out P))).

  (* the reduced DAG of the whole run *)
  Definition maind : rdag :=
    {| d_nodes := path_nodes G (filtered_view P false out) inp out; d_src := inp; d_dst := out;
       d_rec := false; d_oneof := false; d_nested := false |}.
  Definition is_main (d : rdag) : bool := rdag_seqb d maind.

  Lemma is_main_eq d : is_main d = true -> d = maind.
  Proof. apply rdag_seqb_sound. Qed.
  Lemma is_main_refl : is_main maind = true.
  Proof.
    unfold is_main, rdag_seqb. destruct maind as [ns s d r o ne]. cbn.
    assert (L : forall l : list key, list_eqb key_seqb l l = true).
    { induction l as [|k l IH]; cbn; [reflexivity|]. rewrite IH, andb_true_r. destruct k; cbn; rewrite ?Nat.eqb_refl; reflexivity. }
    assert (K : forall k : key, key_seqb k k = true) by (destruct k; cbn; rewrite ?Nat.eqb_refl; reflexivity).
    rewrite L, !K. destruct r, o, ne; reflexivity.
  Qed.

  Hypothesis Hbody : forall i kw a v, p_body P i kw a = OVal v -> clean v = true.

  Definition plain_frame (f : frame) : bool :=
    match f with
    | FChartStart | FChartAfterStart | FChartAfterRun | FChartAfterEmitErr _ | FRunWait => true
    | FChartAfterEmitOk v => clean v
    | FEmit _ _ _ _ _ _ => true
    | FSave _ v _ _ => clean v
    | FDagStart d | FDagFinal d | FDagLoop d _ _ => is_main d
    | FNodeStart d _ f => is_main d && negb f
    | FNodeAfterExec d _ => is_main d
    | FNodeAfterSave d _ u => is_main d && u
    | FExecStart d _ f | FExecAfterStart d _ f => is_main d && negb f
    | FExecDup _ => true
    | FExecAfterBody d _ => is_main d
    | FExecAfterErr d e => is_main d && is_Exception e
    | FExecAfterOk d _ v => is_main d && clean v
    | FRetry _ f _ _ => negb f
    | FRetryAfterBody _ _ _ | FRetryAfterEmit _ _ _ | FRetryAfterSleep _ _ _ => true
    | _ => false
    end.
  Definition plain_stack (k : list frame) : bool := forallb plain_frame k.

  Definition plain_store (s : storage) : Prop :=
    forallb (fun kv => clean (snd kv)) (s_results s) = true /\ s_res_hidden s = [] /\ s_proc_hidden s = [].

  Lemma aset_clean k v l :
    clean v = true -> forallb (fun kv : key * value => clean (snd kv)) l = true ->
    forallb (fun kv : key * value => clean (snd kv)) (aset key_eqb k v l) = true.
  Proof.
    intros Hv. induction l as [|[k' v'] r IH]; cbn; [rewrite Hv; reflexivity|].
    intros H. apply andb_true_iff in H. destruct H as [H1 H2]. destruct (key_eqb k k'); cbn; [rewrite Hv, H2; reflexivity|rewrite H1, IH; auto].
  Qed.

  Lemma plain_set_result k v s : clean v = true -> plain_store s -> plain_store (set_result k v s).
  Proof. intros Hv [A [B C]]. unfold plain_store, set_result. cbn. rewrite B. cbn. split; [apply aset_clean; assumption|auto]. Qed.

  Lemma plain_get_result k b s : plain_store s -> clean (get_result k b s) = true.
  Proof.
    intros [A [B C]]. unfold get_result, get_result_opt. rewrite B. cbn [mem]. rewrite andb_false_r.
    induction (s_results s) as [|[k' v'] r IH]; cbn in *; [reflexivity|].
    apply andb_true_iff in A. destruct A as [A1 A2]. destruct (key_eqb k k'); [exact A1|apply IH; exact A2].
  Qed.

  Lemma plain_exists_error k s : plain_store s -> exists_error k s = false.
  Proof.
    intros [A [B C]]. unfold exists_error, get_result_opt. rewrite B. cbn [mem]. rewrite andb_false_r.
    induction (s_results s) as [|[k' v'] r IH]; cbn in *; [reflexivity|].
    apply andb_true_iff in A. destruct A as [A1 A2]. destruct (key_eqb k k'); [|apply IH; exact A2].
    unfold clean in A1. apply andb_true_iff in A1. destruct A1 as [_ A1]. apply negb_true_iff in A1. exact A1.
  Qed.

  Lemma plain_set_processed k s : plain_store s -> plain_store (set_processed k s).
  Proof. intros [A [B C]]. unfold plain_store, set_processed. cbn. rewrite C. auto. Qed.

  Definition plain_TP (x : task frame) : Prop :=
    match t_state x with
    | TReady k sg => plain_stack k = true /\ clean_sig sg
    | TWait _ k => plain_stack k = true
    | TDone _ => True
    end.
  Lemma plain_TP_wake x w k : t_state x = TWait w k -> plain_TP x -> plain_TP (with_ts x (TReady k SGo)).
  Proof. unfold plain_TP. intros E H. rewrite E in H. cbn. auto. Qed.
  Lemma plain_TP_cancel_ready x k sg : t_state x = TReady k sg -> plain_TP x -> plain_TP (with_ts x (TReady k (SThrow XCancelled))).
  Proof. unfold plain_TP. intros E H. rewrite E in H. cbn. destruct H. auto. Qed.
  Lemma plain_TP_cancel_wait x w k : t_state x = TWait w k -> plain_TP x -> plain_TP (with_ts x (TReady k (SThrow XCancelled))).
  Proof. unfold plain_TP. intros E H. rewrite E in H. cbn. auto. Qed.

  Definition plain_state (st : mstate) : Prop := plain_store (st_store st) /\ tasks_ok plain_TP st.

  Lemma plain_dep_error s d n : plain_store s -> dep_error P s d n = None.
  Proof.
    intros H. unfold dep_error.
    assert (E : filter (fun p => exists_error p s) (map (resolve_switch P s) (ready_preds P d n)) = []).
    { induction (map (resolve_switch P s) (ready_preds P d n)) as [|x r IH]; cbn; [reflexivity|]. rewrite (plain_exists_error x s H). exact IH. }
    rewrite E. reflexivity.
  Qed.

  Definition dir_plain (d : directive) : Prop :=
    match d with
    | DSuspend _ k' | DYield k' => plain_stack k' = true
    | DCont k' sg' => plain_stack k' = true /\ clean_sig sg'
    | DRet sg' => clean_sig sg'
    end.

  Lemma clean_not_rec v : clean v = true -> is_rec v = false.
  Proof. unfold clean. intros H. apply andb_true_iff in H. destruct H as [H _]. apply negb_true_iff in H. exact H. Qed.
  Lemma clean_not_exn v : clean v = true -> is_exn v = false.
  Proof. unfold clean. intros H. apply andb_true_iff in H. destruct H as [_ H]. apply negb_true_iff in H. exact H. Qed.

  Lemma decide_return_clean i kw att v :
    retry_decide (nspec_of P i) (p_body P i kw (Nat.pred att)) att = RDReturn v -> clean v = true.
  Proof.
    unfold retry_decide. destruct (p_body P i kw (Nat.pred att)) as [w|c] eqn:E.
    - intros H. inversion H; subst. eapply Hbody. exact E.
    - repeat break_match; discriminate.
  Qed.

  Definition PS (st : mstate) : Prop := plain_store (st_store st).
  Lemma ps_same st st' : same_st st st' -> PS st -> PS st'.
  Proof. intros [S _]. unfold PS. rewrite S. auto. Qed.
  Lemma ps_cancel_tasks ts st : PS st -> PS (cancel_tasks ts st). Proof. apply ps_same, s_cancel_tasks, same_refl. Qed.
  Lemma ps_cancel_task t st : PS st -> PS (cancel_task t st). Proof. apply ps_same, s_cancel_task, same_refl. Qed.
  Lemma ps_finally_b d n st : PS st -> PS (finally_b P d n st). Proof. apply ps_same, s_finally_b, same_refl. Qed.
  Lemma ps_wake_all w sg st : PS st -> PS (wake_all w sg st). Proof. apply ps_same, s_wake_all, same_refl. Qed.
  Lemma ps_set_result k v st : clean v = true -> PS st -> PS (with_store (set_result k v) st).
  Proof. intros Hv H. unfold PS. cbn. apply plain_set_result; assumption. Qed.
  Lemma ps_set_processed k st : PS st -> PS (with_store (set_processed k) st).
  Proof. intros H. unfold PS. cbn. apply plain_set_processed. exact H. Qed.

  Lemma plain_spawned i nm h f : plain_frame f = true -> plain_TP {| t_id := i; t_name := nm; t_state := TReady [f] SGo; t_helper := h |}.
  Proof. intros Hf. unfold plain_TP. cbn. rewrite Hf. auto. Qed.

  Lemma plain_stack_app a b : plain_stack (a ++ b) = plain_stack a && plain_stack b.
  Proof. unfold plain_stack. apply forallb_app. Qed.

End Plain.

(* split the boolean description of a plain frame into its parts: the DAG is the main one, flags have their plain value *)
Ltac plain_prep :=
  repeat match goal with
         | H : (_ && _)%bool = true |- _ => apply andb_true_iff in H; destruct H
         | H : is_main _ ?d = true |- _ => apply is_main_eq in H; subst d
         | H : negb ?f = true |- _ => apply negb_true_iff in H; subst f
         | H : ?u = true |- _ => is_var u; subst u
         end.
