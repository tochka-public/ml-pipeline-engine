(* Plain programs, every schedule, while manager.run is pending: the arguments of a body.
   - a node is launched only when every declared input has a result, and a stored result is never replaced (it is final);
   - the keyword arguments held by the retry loop of a node (the arguments its body is, was, or will again be invoked with) are
     exactly the keyword arguments computed from the stored results of its declared inputs;
   - so are the arguments of every body invocation logged so far. *)
From MLPE Require Import Engine.Run Proofs.PlainWorld Proofs.PlainLive Proofs.Micro Proofs.PlainBase Proofs.PlainCore Proofs.PlainInv Proofs.StackAll Proofs.PlainRoles Proofs.PlainExec Proofs.PlainTasks.

Definition retry_kw (f : frame) : option (nat * kwargs) :=
  match f with
  | FRetry i _ kw _ | FRetryAfterBody i kw _ | FRetryAfterEmit i kw _ | FRetryAfterSleep i kw _ => Some (i, kw)
  | _ => None
  end.

Section Args.
  Variable P : prog.
  Notation G := (b_graph (build (p_decls P) (p_inp P) (p_out P))).
  Hypothesis Hsw : forall n, is_switch G n = false.

  Lemma node_kwargs_ext (st st' : mstate) m :
    (forall p, In p (preds G m) -> get_result p true (st_store st') = get_result p true (st_store st)) ->
    st_adddata st' = st_adddata st -> node_kwargs P st' m = node_kwargs P st m.
  Proof.
    intros Hr Ha. unfold node_kwargs. rewrite Ha. destruct (key_eqb m (b_input (build (p_decls P) (p_inp P) (p_out P)))); [reflexivity|].
    match goal with |- match fold_left ?f1 ?l ?a with _ => _ end = match fold_left ?f2 _ _ with _ => _ end =>
      assert (E : fold_left f1 l a = fold_left f2 l a) end; [|rewrite E; reflexivity].
    unfold preds in Hr.
    assert (K : forall l acc, (forall pe, In pe l -> In (fst pe) (map fst (preds_e G m))) ->
                fold_left (fun acc pe => match acc with None => None | Some kw => match ea_kwarg (snd pe) with None => Some kw
                   | Some nm => if is_switch G (fst pe) then match get_switch (fst pe) (st_store st') with Some (_, c) => Some (kw_insert nm (get_result c true (st_store st')) kw) | None => None end
                                else Some (kw_insert nm (get_result (fst pe) true (st_store st')) kw) end end) l acc =
                fold_left (fun acc pe => match acc with None => None | Some kw => match ea_kwarg (snd pe) with None => Some kw
                   | Some nm => if is_switch G (fst pe) then match get_switch (fst pe) (st_store st) with Some (_, c) => Some (kw_insert nm (get_result c true (st_store st)) kw) | None => None end
                                else Some (kw_insert nm (get_result (fst pe) true (st_store st)) kw) end end) l acc).
    { induction l as [|pe r IH]; intros acc Hin; cbn [fold_left]; [reflexivity|].
      rewrite IH; [|intros pe' Hpe'; apply Hin; right; exact Hpe'].
      f_equal. destruct acc as [kw|]; [|reflexivity]. destruct (ea_kwarg (snd pe)); [|reflexivity]. rewrite Hsw.
      rewrite (Hr (fst pe)); [reflexivity|]. apply Hin. left. reflexivity. }
    apply K. intros pe Hpe. apply in_map. exact Hpe.
  Qed.

  Hypothesis Hhd : forall n, is_head G n = false.
  Hypothesis Hbody : forall i kw a v, p_body P i kw a = OVal v -> clean v = true.

  Lemma is_ready_true (s : storage) n : is_ready P s (maind P) n = true -> forall p, In p (preds G n) -> exists_result p s = true.
  Proof.
    unfold is_ready, ready_preds. rewrite Hsw, Hhd. cbn [d_rec maind orb]. intros H p Hp. rewrite forallb_forall in H. specialize (H p Hp).
    unfold resolve_switch in H. rewrite Hsw in H. apply andb_true_iff in H. apply H.
  Qed.

  Lemma plain_step_retry_kw t fr sg st f j kw :
    In f (dir_frames (snd (step_frame P t fr sg st))) -> retry_kw f = Some (j, kw) ->
    retry_kw fr = Some (j, kw) \/ (exists d0 n fc, fr = FExecAfterStart d0 n fc /\ j = real_index n /\ node_kwargs P st n = Some kw).
  Proof.
    intros Hin Hr. destruct (step_pushed P t fr sg st f Hin) as [k' [Hp Hf]].
    destruct Hp; cbn [In] in Hf; repeat (destruct Hf as [<-|Hf]); try contradiction; try discriminate Hr; inversion Hr; subst; eauto 8.
  Qed.

  Lemma plain_step_ostart t fr sg st i k kw :
    plain_frame P fr = true -> clean_sig sg -> PS st ->
    In (OStart i k kw) (st_trace (fst (step_frame P t fr sg st))) ->
    In (OStart i k kw) (st_trace st) \/ (exists att, fr = FRetry i false kw att /\ sg = SGo).
  Proof.
    intros Hf Hs Hst. destruct (plain_step_records P t fr sg st Hf Hs Hst) as [->|[o [-> Ho]]]; [auto|].
    intros [Hx|Hin]; [|left; exact Hin]. subst o. inversion Ho; subst. eauto.
  Qed.

  Notation order := (p_order P (maind P)).
  Hypothesis Hnd : NoDup order.

  Definition PhiA (st : mstate) : idt -> tstate frame -> Prop :=
    on_node (fun m ts =>
      (forall f j kw, In f (estack ts) -> retry_kw f = Some (j, kw) -> j = real_index m /\ node_kwargs P st m = Some kw) /\
      (exists_result m (st_store st) = true -> existsb is_after_save (estack ts) = true \/ exists r, ts = TDone r) /\
      (forall p, In p (preds G m) -> exists_result p (st_store st) = true)).

  Definition args_ok (st : mstate) (i : nat) (kw : kwargs) : Prop :=
    exists m, real_index m = i /\ In m (node_names st) /\ node_kwargs P st m = Some kw /\
              forall p, In p (preds G m) -> exists_result p (st_store st) = true.

  Definition globA (st : mstate) : Prop :=
    st_adddata st = [] /\
    (forall m, exists_result m (st_store st) = true -> In m (node_names st)) /\
    (forall i k kw, In (OStart i k kw) (st_trace st) -> args_ok st i kw).

  Definition argsI (st : mstate) (c : running) : Prop := guard st \/ (globA st /\ allT (PhiA st) st c).

  Lemma PhiA_wake st : wake_closed (PhiA st).
  Proof.
    intros i w k H m Hm. destruct (H m Hm) as (A & B & C). cbn [estack] in *. split; [exact A|]. split; [|exact C].
    intros Hr. destruct (B Hr) as [Hs|[r Hr']]; [left; exact Hs|discriminate Hr'].
  Qed.

  Lemma PhiA_ext a b i ts : same_core a b -> PhiA a i ts -> PhiA b i ts.
  Proof.
    intros (A & _ & _ & _ & _ & B) H m Hm. destruct (H m Hm) as (H1 & H2 & H3). rewrite A. split; [|split; assumption].
    intros f j kw Hf Hr. rewrite (node_kwargs_ext a b m); [exact (H1 f j kw Hf Hr)|intros; rewrite A; reflexivity|exact B].
  Qed.
  Lemma globA_ext a b : same_core a b -> globA a -> globA b.
  Proof.
    intros (B & _ & D & A & _ & C) (G1 & G2 & G3). unfold globA, args_ok, node_names. rewrite A, B, C, D. split; [exact G1|]. split; [exact G2|].
    intros i k kw Hin. destruct (G3 i k kw Hin) as [m (M1 & M2 & M3 & M4)]. exists m. repeat split; auto.
    rewrite (node_kwargs_ext a b m); [exact M3|intros; rewrite B; reflexivity|exact C].
  Qed.

  Lemma owner_eas m d n fc : owner (TNNode m) (FExecAfterStart d n fc) = true -> n = m.
  Proof. cbn. intros H. apply key_eqb_spec in H. exact H. Qed.
  Lemma owner_node_name nm f j kw : owner nm f = true -> retry_kw f = Some (j, kw) -> exists m, nm = TNNode m /\ j = real_index m.
  Proof.
    destruct f; cbn [retry_kw]; intros Ho H; try discriminate H; inversion H; subst; destruct nm; try discriminate Ho; cbn in Ho;
      apply Nat.eqb_eq in Ho; eauto.
  Qed.

  Lemma args_ok_mono st st1 i kw :
    (forall p, exists_result p (st_store st) = true ->
               exists_result p (st_store st1) = true /\ get_result p true (st_store st1) = get_result p true (st_store st)) ->
    (forall m, In m (node_names st) -> In m (node_names st1)) -> st_adddata st1 = st_adddata st ->
    args_ok st i kw -> args_ok st1 i kw.
  Proof.
    intros F12 F3 F4 [m (M1 & M2 & M3 & M4)]. exists m. split; [exact M1|]. split; [exact (F3 m M2)|]. split; [|intros p Hp; apply F12, M4, Hp].
    rewrite (node_kwargs_ext st st1 m); [exact M3|intros p Hp; apply F12, M4, Hp|exact F4].
  Qed.

  (* a stored result is final; a result is stored only by _run_node resumed with the value of its node, which has none then; it goes
     on, in the same loop iteration, with the call of the store and then its `finally` *)
  Lemma results_final_step st t fr rest sg :
    base P st (Some (t, fr :: rest, sg)) -> allT (PhiA st) st (Some (t, fr :: rest, sg)) ->
    (forall p, exists_result p (st_store st) = true ->
               exists_result p (st_store (fst (step_frame P t fr sg st))) = true /\
               get_result p true (st_store (fst (step_frame P t fr sg st))) = get_result p true (st_store st)) /\
    (forall d n v, fr = FNodeAfterExec d n -> sg = SVal v ->
                   d = maind P /\ exists_result n (st_store st) = false /\ exists_result n (st_store (fst (step_frame P t fr sg st))) = true /\
                   get_result n true (st_store (fst (step_frame P t fr sg st))) = v /\
                   snd (step_frame P t fr sg st) = DCont [FSave n v false 0; FNodeAfterSave (maind P) n true] SGo) /\
    (forall p, exists_result p (st_store (fst (step_frame P t fr sg st))) = true -> exists_result p (st_store st) = false ->
               exists d v, fr = FNodeAfterExec d p /\ sg = SVal v).
  Proof.
    intros Hb HAa.
    destruct (base_running P _ _ _ _ _ Hb) as (x0 & Hf0 & Hin0 & Hid0 & Kf & Kr & Hs & Of & Or & Hc).
    pose proof (b_ps _ _ _ Hb) as Hps. pose proof Hps as (_ & Hrh & _).
    destruct (plain_step_summary P t fr sg st Kf Hs Hps) as (Hst & _ & _).
    assert (Hfresh : forall d n v, fr = FNodeAfterExec d n -> sg = SVal v -> exists_result n (st_store st) = false).
    { intros d n v -> ->. destruct (exists_result n (st_store st)) eqn:Hp; [|reflexivity]. exfalso.
      (* a node that has its result is past _run_node's store: its task runs the frame of the `finally`, or is done *)
      pose proof (owner_frame_key _ _ _ Of eq_refl) as Enm. destruct (allT_run _ _ _ _ _ _ x0 HAa Hin0 Hid0 n Enm) as (_ & B & _).
      destruct (B Hp) as [Hs'|[r Hr]]; [|discriminate Hr].
      rewrite Enm in Or. rewrite (knode_bottom n (FNodeAfterExec d n) rest eq_refl Or Hc) in Hs'. discriminate Hs'. }
    rewrite Hst. destruct (step_store_results fr sg st Hrh Hfresh) as (K & S & N). split; [exact K|]. split; [|exact N].
    intros d n v Efr Esg. destruct (S d n v Efr Esg) as [S1 S2]. pose proof (Hfresh d n v Efr Esg) as S0. subst fr sg.
    cbn [plain_frame] in Kf. apply is_main_eq in Kf. subst d. rewrite (plain_step_stores P t n v st Hs). auto.
  Qed.

  Lemma argsA_step st t fr rest sg :
    base P st (Some (t, fr :: rest, sg)) -> handled fr sg = true ->
    allT (PhiR P st) st (Some (t, fr :: rest, sg)) ->
    NoDup (node_names (fst (step_frame P t fr sg st))) ->
    globA st -> allT (PhiA st) st (Some (t, fr :: rest, sg)) ->
    leaves_run fr sg (snd (step_frame P t fr sg st)) = false ->
    globA (fst (step_frame P t fr sg st)) /\
    allT (PhiA (fst (step_frame P t fr sg st)))
         (fst (after_step t rest (step_frame P t fr sg st))) (snd (after_step t rest (step_frame P t fr sg st))).
  Proof.
    intros Hb Hh HA Hnd1 (A0 & A1 & A3) HAa Hlr.
    destruct (base_running P _ _ _ _ _ Hb) as (x0 & Hf0 & Hin0 & Hid0 & Kf & Kr & Hs & Of & Or & Hc).
    pose proof (b_ps _ _ _ Hb) as Hps. pose proof (in_names _ _ Hin0) as Hnm0.
    destruct (plain_step_summary P t fr sg st Kf Hs Hps) as (_ & _ & Had).
    pose proof (fun m => node_names_step P t fr sg st m Kf Hs Hps) as Hnn.
    destruct (results_final_step st t fr rest sg Hb HAa) as (F12 & Hsto & F3).
    assert (Hkw : forall m, (forall p, In p (preds G m) -> exists_result p (st_store st) = true) ->
                            node_kwargs P (fst (step_frame P t fr sg st)) m = node_kwargs P st m).
    { intros m Hp. apply node_kwargs_ext; [intros p Hpp; apply F12, Hp, Hpp|exact Had]. }
    split.
    -
      split; [rewrite Had; exact A0|]. split.
      + intros m Hm. destruct (exists_result m (st_store st)) eqn:Er; [apply Hnn, A1, Er|].
        destruct (F3 m Hm Er) as [d [v [-> _]]]. apply Hnn, node_names_in. rewrite <- (owner_frame_key _ _ _ Of eq_refl). exact Hnm0.
      + intros i k kw Hin. apply (args_ok_mono st); try assumption.
        destruct (plain_step_ostart t fr sg st i k kw Kf Hs Hps Hin) as [Hold|[att [-> ->]]]; [exact (A3 i k kw Hold)|].
        (* the body is invoked with the arguments its retry loop holds *)
        destruct (owner_node_name _ _ _ _ Of eq_refl) as [m [Enm Ej]]. destruct (allT_run _ _ _ _ _ _ x0 HAa Hin0 Hid0 m Enm) as (A & _ & C).
        destruct (A _ i kw (or_introl eq_refl) eq_refl) as [_ Hk]. exists m. repeat split; auto.
        apply node_names_in. rewrite <- Enm. exact Hnm0.
    - apply (allT_node_step P Hsw Hhd _ _ st t fr rest sg Hb Hnd1 Hlr HAa (PhiA_wake st)).
      +
        intros m Hm. destruct (creates_node P Hnd st t fr rest sg m Hb HA Hm) as (Hrd & Hnot & _). cbn [estack]. split; [|split].
        * intros f j kw [<-|[]] Hr. discriminate Hr.
        * intros Hr. exfalso. apply Hnot, A1, Hr.
        * apply (is_ready_true _ _ Hrd).
      +
        intros nm m ts Onm _ Hne _ (B1 & B2 & B3). split; [|split].
        * intros f j kw Hf Hr. rewrite (Hkw m B3). exact (B1 f j kw Hf Hr).
        * intros Hr. apply B2. rewrite <- (other_node_result P t fr sg st nm m Kf Hs Hps Onm Hne). exact Hr.
        * intros p Hp. apply F12, B3, Hp.
      +
        intros m Om Orm Hm. destruct (Hm _ HAa) as (B1 & B2 & B3). rewrite estack_nstate. split; [|split].
        * intros f j kw Hf Hr. rewrite (Hkw m B3). apply in_app_or in Hf. destruct Hf as [Hf|Hf]; [|exact (B1 f j kw (or_intror Hf) Hr)].
          destruct (plain_step_retry_kw t fr sg st f j kw Hf Hr) as [Hfr|[d0 [n [fc [-> [-> Hnk]]]]]];
            [exact (B1 fr j kw (or_introl eq_refl) Hfr)|].
          rewrite <- (owner_eas _ _ _ _ Om). split; [reflexivity|exact Hnk].
        * intros Hr. rewrite existsb_app.
          destruct (exists_result m (st_store st)) eqn:Er.
          -- destruct (B2 eq_refl) as [Hs'|[r Hr']]; [|discriminate Hr']. cbn [estack existsb] in Hs'. apply orb_true_iff in Hs'. destruct Hs' as [Hs'|Hs'].
             ++ (* the frame of the `finally`: the task finishes with this step *)
                right. destruct fr; try discriminate Hs'. assert (rest = []) by (apply (knode_bottom m (FNodeAfterSave d n unlock) rest eq_refl Orm Hc)). subst rest.
                cbn [plain_frame] in Kf. apply andb_true_iff in Kf. destruct Kf as [Kd Ku]. subst unlock.
                assert (Hse : step_event (FNodeAfterSave d n true) sg = Some n) by (destruct sg; try discriminate Hh; reflexivity).
                assert (Kf' : plain_frame P (FNodeAfterSave d n true) = true) by (cbn [plain_frame]; rewrite Kd; reflexivity).
                destruct (plain_step_event_ret P t _ sg st n Kf' Hs Hps Hse) as [s' Hd].
                exists s'. rewrite Hd. reflexivity.
             ++ left. rewrite Hs'. apply orb_true_r.
          -- (* the result is stored by this very step, which pushes the frame of the `finally` *)
             left. destruct (F3 m Hr Er) as [d [v [-> ->]]]. destruct (Hsto d m v eq_refl eq_refl) as (_ & _ & _ & _ & ->). reflexivity.
        * intros p Hp. apply F12, B3, Hp.
  Qed.

  Theorem creach_args : forall st c, creach P st c -> argsI st c.
  Proof.
    apply (creach_guarded P Hsw Hhd Hbody globA PhiA globA_ext PhiA_ext PhiA_wake).
    - intros st k s _ m Hm. discriminate Hm.
    - intros st w k _ m Hm. discriminate Hm.
    - split; [reflexivity|]. split; [intros m Hm; discriminate Hm|intros i k kw [Hx|[]]; discriminate Hx].
    - intros m Hm. discriminate Hm.
    - intros st t fr rest sg H Hg0 Hg1 Hlr GA HAa.
      destruct (unguard _ _ (creach_roles P Hsw Hhd Hbody _ _ H) Hg0) as [_ HA].
      destruct (creach_typed P Hsw Hhd Hbody _ _ H) as [_ Hty].
      exact (argsA_step st t fr rest sg (creach_base P Hsw Hhd Hbody _ _ H) Hty HA (nodup_next P Hsw Hhd Hbody Hnd st t fr rest sg H Hg1) GA HAa Hlr).
  Qed.
End Args.


Theorem plain_arguments_are_final_values P :
  plain_prog P -> NoDup (p_order P (maind P)) ->
  forall st, reachable P st -> over st = false -> main_done st = false ->
    (* every body invocation logged so far *)
    (forall i k kw, In (OStart i k kw) (st_trace st) ->
       exists m, real_index m = i /\ node_kwargs P st m = Some kw /\
                 forall p, In p (preds (b_graph (build (p_decls P) (p_inp P) (p_out P))) m) -> exists_result p (st_store st) = true) /\
    (* the arguments held by the retry loop of every node task (what its body is, was or will again be invoked with) *)
    (forall x m f j kw, In x (st_tasks st) -> t_name x = TNNode m -> In f (estack (t_state x)) -> retry_kw f = Some (j, kw) ->
       j = real_index m /\ node_kwargs P st m = Some kw) /\
    (* a node that has a task has all its declared inputs computed *)
    (forall x m p, In x (st_tasks st) -> t_name x = TNNode m -> In p (preds (b_graph (build (p_decls P) (p_inp P) (p_out P))) m) ->
       exists_result p (st_store st) = true).
Proof.
  intros (Hg & Hb & _) Hnd st Hr Ho Hm. destruct (graph_plain_sound _ Hg) as [Hsw Hhd].
  destruct (creach_args P Hsw Hhd Hb Hnd st None (reachable_creach P st Hr)) as [[Hg'|Hg']|[(A0 & A1 & A3) HA]]; [congruence|congruence|].
  split; [|split].
  - intros i k kw Hin. destruct (A3 i k kw Hin) as [m (M1 & _ & M3 & M4)]. exists m. auto.
  - intros x m f j kw Hx Hnm Hf Hr'. destruct (allT_In _ _ _ x HA Hx m Hnm) as (B1 & _ & _). cbn [estate] in B1. exact (B1 f j kw Hf Hr').
  - intros x m p Hx Hnm Hp. destruct (allT_In _ _ _ x HA Hx m Hnm) as (_ & _ & B3). exact (B3 p Hp).
Qed.
