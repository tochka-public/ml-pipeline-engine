(* C13: what a CancelledError thrown into a task does, and what the engine looks like once run() has ended.
   For every program and every schedule. *)
From MLPE Require Import Engine.Run Proofs.ExecLemmas Proofs.Evolve Proofs.StackInv.

(* events an outside observer can see: body and get_default invocations, event callbacks, saves, timers *)
Definition visible (o : obs) : bool :=
  match o with
  | OStart _ _ _ | ODefault _ _ | OEmit _ _ _ _ _ | OSave _ _ | OSleep _ _ => true
  | _ => false
  end.
Definition vis (st : mstate) : list obs := filter visible (st_trace st).

Definition quiet (st st' : mstate) : Prop := vis st' = vis st /\ st_next st' = st_next st.

Lemma quiet_trans a b c : quiet a b -> quiet b c -> quiet a c.
Proof. intros [A1 A2] [B1 B2]. split; congruence. Qed.
Lemma quiet_same st st' :
  st_store st' = st_store st -> st_adddata st' = st_adddata st -> st_trace st' = st_trace st -> st_next st' = st_next st -> quiet st st'.
Proof. intros _ _ T N. unfold quiet, vis. rewrite T, N. split; reflexivity. Qed.

Lemma q_set_waiters w st : quiet st (set_waiters w st). Proof. apply (I_set_waiters _ quiet_same). Qed.
Lemma q_set_tstate t ts st : quiet st (set_tstate t ts st). Proof. apply (I_set_tstate _ quiet_same). Qed.
Definition q_suspend := R_suspend quiet quiet_trans q_set_waiters q_set_tstate.

Lemma q_with_store f st : quiet st (with_store f st). Proof. split; reflexivity. Qed.
Lemma q_emit_ghost o st : visible o = false -> quiet st (emit_obs o st).
Proof. intros H. unfold quiet, vis. cbn. rewrite H. split; reflexivity. Qed.

Ltac q_prims := inert_prims quiet_trans quiet_same ltac:(apply q_emit_ghost; reflexivity).

(* every task other than the one running PipelineChart.run (i.e. every member of _coro_tasks) is finished or has a
   CancelledError pending *)
Definition cancelled_TP (x : task frame) : Prop :=
  t_id x <> main_tid ->
  match t_state x with
  | TDone _ => True
  | TReady _ (SThrow XCancelled) => True
  | _ => False
  end.

Lemma cancelled_wake x w k : t_state x = TWait w k -> cancelled_TP x -> cancelled_TP (with_ts x (TReady k SGo)).
Proof. unfold cancelled_TP. intros E H Hh. cbn in Hh. specialize (H Hh). rewrite E in H. contradiction. Qed.
Lemma cancelled_cancel_ready x k sg : t_state x = TReady k sg -> cancelled_TP x -> cancelled_TP (with_ts x (TReady k (SThrow XCancelled))).
Proof. unfold cancelled_TP. intros _ _ _. cbn. exact I. Qed.
Lemma cancelled_cancel_wait x w k : t_state x = TWait w k -> cancelled_TP x -> cancelled_TP (with_ts x (TReady k (SThrow XCancelled))).
Proof. unfold cancelled_TP. intros _ _ _. cbn. exact I. Qed.

Definition all_cancelled (st : mstate) : Prop := tasks_ok cancelled_TP st.

Ltac c_prims :=
  repeat first
         [ assumption
         | apply (ok_cancel_tasks cancelled_TP cancelled_cancel_ready cancelled_cancel_wait)
         | apply (ok_finally_a cancelled_TP cancelled_wake) | apply (ok_finally_b cancelled_TP cancelled_wake)
         | apply ok_emit_obs | apply ok_bump ].

Definition stable (Q : tstate frame -> Prop) : Prop :=
  (forall w k, Q (TWait w k) -> Q (TReady k SGo))
  /\ (forall k sg, Q (TReady k sg) -> Q (TReady k (SThrow XCancelled)))
  /\ (forall w k, Q (TWait w k) -> Q (TReady k (SThrow XCancelled))).

Section MainOnly.
  Variable Q : tstate frame -> Prop.

  Definition main_TP (x : task frame) : Prop := t_id x = main_tid -> Q (t_state x).

  (* the chart task is the first of the table, and no other task has its id *)
  Lemma main_TP_iff st : evolves init_state st -> (tasks_ok main_TP st <-> exists ts, main_state st = Some ts /\ Q ts).
  Proof.
    intros He. destruct (evolved_shape st He) as [x [rest [T [Hid [_ [Hr _]]]]]].
    unfold main_state, tasks_ok. rewrite T. cbn [find_task]. rewrite Hid. cbn [Nat.eqb main_tid option_map]. split.
    - intros H. inversion H as [|? ? Hx _]. eauto.
    - intros [ts [E HQ]]. inversion E; subst ts. constructor; [intros _; exact HQ|].
      eapply Forall_impl; [|exact Hr]. intros y Hy Hc. contradiction.
  Qed.

  Lemma main_TP_set ts st : evolves init_state st -> Q ts -> tasks_ok main_TP (set_tstate main_tid ts st).
  Proof.
    intros He HQ. destruct (evolved_shape st He) as [x [rest [T [Hid [_ [Hr _]]]]]].
    unfold tasks_ok, set_tstate. cbn [st_tasks]. rewrite T. cbn [upd_task]. rewrite Hid. cbn [Nat.eqb main_tid].
    constructor; [intros _; exact HQ|]. eapply Forall_impl; [|exact Hr]. intros y Hy Hc. contradiction.
  Qed.

  Lemma main_spawn i nm f : 1 <= i -> spawn_frame f = true ->
                            main_TP {| t_id := i; t_name := nm; t_state := TReady [f] SGo; t_helper := true |}.
  Proof. unfold main_TP, main_tid. cbn. lia. Qed.

  Hypothesis Q_stable : stable Q.

  Lemma main_wake x w k : t_state x = TWait w k -> main_TP x -> main_TP (with_ts x (TReady k SGo)).
  Proof. intros E H Hi. apply (proj1 Q_stable w). rewrite <- E. exact (H Hi). Qed.
  Lemma main_cancel_ready x k sg : t_state x = TReady k sg -> main_TP x -> main_TP (with_ts x (TReady k (SThrow XCancelled))).
  Proof. intros E H Hi. apply (proj1 (proj2 Q_stable) k sg). rewrite <- E. exact (H Hi). Qed.
  Lemma main_cancel_wait x w k : t_state x = TWait w k -> main_TP x -> main_TP (with_ts x (TReady k (SThrow XCancelled))).
  Proof. intros E H Hi. apply (proj2 (proj2 Q_stable) w). rewrite <- E. exact (H Hi). Qed.

  Definition main_gate := complete_gate_tasks_ok main_TP main_wake.
  Definition main_cancel := ok_cancel_task main_TP main_cancel_ready main_cancel_wait.

  Lemma exec_other_main P t (R : mstate -> Prop) :
    t <> main_tid -> (forall st, tasks_ok main_TP st -> R st) -> (forall st, tasks_ok main_TP st -> R (abort P st)) ->
    forall fuel k sg st, 1 <= st_next st -> tasks_ok main_TP st -> R (exec P fuel t k sg st).
  Proof.
    intros Ht. apply (exec_tasks_other P main_TP main_wake main_cancel_ready main_cancel_wait main_spawn).
    intros x ts <- Hi. contradiction.
  Qed.
End MainOnly.

Definition ended (ts : tstate frame) : Prop := match ts with TDone _ => True | _ => False end.

Lemma ended_stable : stable ended.
Proof. repeat split; intros; assumption. Qed.

Lemma main_done_iff st : evolves init_state st -> (main_done st = true <-> tasks_ok (main_TP ended) st).
Proof.
  intros He. rewrite (main_TP_iff ended st He). unfold main_done. split.
  - destruct (main_state st) as [[k sg|w k|r]|]; try discriminate. intros _. exists (TDone r). split; [reflexivity|exact I].
  - intros [ts [-> H]]. destruct ts; try contradiction. reflexivity.
Qed.

Section Cancel.
  Variable P : prog.

  Lemma unwind_step t fr st :
    all_cancelled st ->
    all_cancelled (fst (step_frame P t fr (SThrow XCancelled) st))
    /\ quiet st (fst (step_frame P t fr (SThrow XCancelled) st))
    /\ (snd (step_frame P t fr (SThrow XCancelled) st) = DRet (SThrow XCancelled)
        \/ ((exists d n, fr = FNodeAfterSave d n false) /\ snd (step_frame P t fr (SThrow XCancelled) st) = DRet (SVal VNone))).
  Proof.
    intros H. unfold all_cancelled in *.
    destruct fr; cbn [step_frame is_Exception]; repeat break_match; cbn [fst snd];
      (split; [c_prims|split; [q_prims|first [left; reflexivity|right; split; [eauto|reflexivity]]]]).
  Qed.

  (* after the `return` in the `finally` of _run_node swallowed the CancelledError, a value meets what is below *)
  Lemma after_swallow_step t s n v st :
    all_cancelled st ->
    all_cancelled (fst (step_frame P t (FRecAfterDefault s n) (SVal v) st))
    /\ quiet st (fst (step_frame P t (FRecAfterDefault s n) (SVal v) st))
    /\ exists v', snd (step_frame P t (FRecAfterDefault s n) (SVal v) st) = DRet (SVal v').
  Proof. intros H. cbn [step_frame fst snd]. split; [apply ok_with_store, H|split; [apply q_with_store|eauto]]. Qed.

  Definition is_done_t (t : tid) (st : mstate) : Prop :=
    forall x, find_task t (st_tasks st) = Some x -> exists r, t_state x = TDone r.

  Lemma done_after_set t r st : is_done_t t (set_tstate t (TDone r) st).
  Proof. intros y Hy. apply find_set_tstate in Hy. destruct Hy as [[_ [x [_ ->]]]|[[] _]]; [cbn; eauto|reflexivity]. Qed.

  Lemma below_node_save d n u rest :
    chainb (FNodeAfterSave d n u :: rest) = true -> rest = [] \/ exists s n', rest = [FRecAfterDefault s n'].
  Proof.
    destruct rest as [|g rest']; [auto|]. cbn [chainb]. intros H. apply andb_true_iff in H. destruct H as [Ha Hc]. right.
    destruct g; try discriminate Ha. destruct rest' as [|h rest'']; [eauto|].
    cbn [chainb] in Hc. apply andb_true_iff in Hc. destruct Hc as [Hb _]. destruct h; discriminate Hb.
  Qed.

  (* a CancelledError thrown into any task with a well-formed stack ends it in that very step, silently *)
  Lemma unwind_exec fuel t k st :
    chainb k = true -> all_cancelled st ->
    all_cancelled (exec P fuel t k (SThrow XCancelled) st)
    /\ quiet st (exec P fuel t k (SThrow XCancelled) st)
    /\ is_done_t t (exec P fuel t k (SThrow XCancelled) st).
  Proof.
    intros Hc H0.
    apply (exec_rule P t
             (fun k sg s => all_cancelled s /\ quiet st s /\ chainb k = true
                            /\ (sg = SThrow XCancelled \/ ((exists v, sg = SVal v) /\ (k = [] \/ exists s' n, k = [FRecAfterDefault s' n]))))
             (fun s => all_cancelled s /\ quiet st s /\ is_done_t t s)).
    - intros sg s [A [B _]]. split; [|split].
      + apply ok_set_tstate; [exact A|]. intros x _ _ _. exact I.
      + eapply quiet_trans; [exact B|apply q_set_tstate].
      + apply done_after_set.
    - intros fr rest sg s [A [B [C D]]]. split.
      { split; [|split].
        - apply ok_abort; [|exact A]. intros x r _ _. exact I.
        - eapply quiet_trans; [exact B|apply (I_abort _ _ quiet_same)].
        - intros y Hy. exact (find_task_abort P t s y Hy). }
      destruct D as [->|[[v ->] [E|[s' [n E]]]]]; [| discriminate E |].
      + destruct (unwind_step t fr s A) as [A1 [B1 D1]].
        destruct (step_frame P t fr (SThrow XCancelled) s) as [st1 d]. cbn [fst snd] in *.
        destruct D1 as [->|[[d' [n ->]] ->]].
        * split; [exact A1|]. split; [eapply quiet_trans; eassumption|]. split; [apply (chainb_tail fr); exact C|]. left. reflexivity.
        * split; [exact A1|]. split; [eapply quiet_trans; eassumption|]. split; [apply (chainb_tail _ _ C)|]. right.
          split; [eauto|]. apply (below_node_save d' n false). exact C.
      + inversion E; subst. destruct (after_swallow_step t s' n v s A) as [A1 [B1 [v' D1]]].
        destruct (step_frame P t (FRecAfterDefault s' n) (SVal v) s) as [st1 d]. cbn [fst snd] in *. subst d.
        split; [exact A1|]. split; [eapply quiet_trans; eassumption|]. split; [reflexivity|]. right. split; [eauto|]. left. reflexivity.
    - split; [exact H0|]. split; [apply (I_refl _ quiet_same)|]. split; [exact Hc|]. left. reflexivity.
  Qed.

  (* run()'s `finally` cancels every helper task *)
  Definition cancel1 (y : task frame) : task frame :=
    match t_state y with
    | TDone _ => y
    | TReady k _ | TWait _ k => with_ts y (TReady k (SThrow XCancelled))
    end.

  Lemma map_if_none t (f : task frame -> task frame) (l : list (task frame)) :
    ~ In t (map t_id l) -> map (fun y => if Nat.eqb (t_id y) t then f y else y) l = l.
  Proof.
    induction l as [|z r IH]; cbn [map]; [reflexivity|]. intros Hn. destruct (Nat.eqb (t_id z) t) eqn:E.
    - exfalso. apply Hn. left. apply Nat.eqb_eq. exact E.
    - f_equal. apply IH. intros Hin. apply Hn. right. exact Hin.
  Qed.

  Lemma upd_task_map t f (l : list (task frame)) :
    NoDup (map t_id l) -> upd_task t f l = map (fun y => if Nat.eqb (t_id y) t then f y else y) l.
  Proof.
    induction l as [|y r IH]; cbn [upd_task map]; [reflexivity|]. intros H. inversion H as [|? ? Hn Hd]; subst.
    destruct (Nat.eqb (t_id y) t) eqn:E.
    - f_equal. apply Nat.eqb_eq in E. rewrite map_if_none; [reflexivity|]. rewrite <- E. exact Hn.
    - f_equal. apply IH. exact Hd.
  Qed.

  Lemma upd_task_ext t f g (l : list (task frame)) :
    (forall x, find_task t l = Some x -> f x = g x) -> upd_task t f l = upd_task t g l.
  Proof.
    induction l as [|y r IH]; cbn [upd_task find_task]; [reflexivity|]. intros H. destruct (Nat.eqb (t_id y) t).
    - rewrite (H y eq_refl). reflexivity.
    - rewrite (IH H). reflexivity.
  Qed.

  Lemma upd_task_id t (l : list (task frame)) : upd_task t (fun x => x) l = l.
  Proof. induction l as [|y r IH]; cbn [upd_task]; [reflexivity|]. destruct (Nat.eqb (t_id y) t); [reflexivity|]. rewrite IH. reflexivity. Qed.

  Lemma cancel_task_tasks t st :
    NoDup (map t_id (st_tasks st)) ->
    st_tasks (cancel_task t st) = map (fun y => if Nat.eqb (t_id y) t then cancel1 y else y) (st_tasks st).
  Proof.
    intros Hd. rewrite <- (upd_task_map t cancel1) by exact Hd. unfold cancel_task.
    destruct (find_task t (st_tasks st)) as [[i nm [k s|w k|r] h]|] eqn:F; cbn [st_tasks set_tstate push_ready set_waiters].
    1-2: apply upd_task_ext.
    3-4: rewrite <- (upd_task_id t (st_tasks st)) at 1; apply upd_task_ext.
    all: intros x Hx; rewrite F in Hx; inversion Hx; reflexivity.
  Qed.

  Lemma cancel1_id y : t_id (cancel1 y) = t_id y.
  Proof. unfold cancel1. destruct (t_state y); reflexivity. Qed.
  Lemma cancel1_idem y : cancel1 (cancel1 y) = cancel1 y.
  Proof. unfold cancel1. destruct y as [i nm [k s|w k|r] h]; reflexivity. Qed.

  Lemma cancel_tasks_tasks ts st :
    NoDup (map t_id (st_tasks st)) ->
    st_tasks (cancel_tasks ts st) = map (fun y => if mem Nat.eqb (t_id y) ts then cancel1 y else y) (st_tasks st).
  Proof.
    unfold cancel_tasks. revert st. induction ts as [|t r IH]; intros st Hd; cbn [fold_left mem].
    - rewrite <- (map_id (st_tasks st)) at 1. reflexivity.
    - rewrite IH.
      + rewrite cancel_task_tasks by exact Hd. rewrite map_map. apply map_ext. intros y.
        destruct (Nat.eqb (t_id y) t) eqn:E.
        * rewrite cancel1_id. destruct (mem Nat.eqb (t_id y) r); [apply cancel1_idem|reflexivity].
        * reflexivity.
      + rewrite cancel_task_tasks by exact Hd. rewrite map_map.
        erewrite map_ext; [exact Hd|]. intros y. cbn. destruct (Nat.eqb (t_id y) t); [apply cancel1_id|reflexivity].
  Qed.

  Lemma helper_tids_mem (st : mstate) y : In y (st_tasks st) -> t_helper y = true -> mem Nat.eqb (t_id y) (helper_tids st) = true.
  Proof.
    intros Hin Hh. apply (mem_true_iff Nat.eqb Nat.eqb_eq). unfold helper_tids. apply in_flat_map. exists y. split; [exact Hin|].
    rewrite Hh. left. reflexivity.
  Qed.

  Lemma cancel_all_helpers st :
    NoDup (map t_id (st_tasks st)) -> stacks_ok st -> all_cancelled (cancel_tasks (helper_tids st) st).
  Proof.
    intros Hd Hs. unfold all_cancelled, tasks_ok. rewrite cancel_tasks_tasks by exact Hd. rewrite Forall_forall. intros y' Hy'.
    apply in_map_iff in Hy'. destruct Hy' as [y [<- Hy]]. unfold stacks_ok, tasks_ok in Hs. rewrite Forall_forall in Hs.
    destruct (Hs y Hy) as [[Hh1 Hh2] _]. intros Hid.
    assert (Hh : t_helper y = true).
    { destruct (t_helper y) eqn:E; [reflexivity|]. exfalso. destruct (mem Nat.eqb (t_id y) (helper_tids st)); [rewrite cancel1_id in Hid|]; auto. }
    rewrite (helper_tids_mem st y Hy Hh). unfold cancel1. destruct (t_state y) eqn:E; cbn; try rewrite E; exact I.
  Qed.

  (* either the chart task is inside manager.run() (stack [FRunWait; FChartAfterRun]) or every helper task is
     finished / cancelled: before run() starts there is no helper, after it ends its `finally` cancelled them all *)
  Definition in_run (ts : tstate frame) : Prop :=
    match ts with
    | TReady k _ | TWait _ k => k = [FRunWait; FChartAfterRun]
    | TDone _ => False
    end.

  Lemma in_run_stable : stable in_run.
  Proof. repeat split; intros; assumption. Qed.

  Definition phase_ok (st : mstate) : Prop := tasks_ok (main_TP in_run) st \/ all_cancelled st.

  Lemma all_cancelled_abort st : all_cancelled (abort P st).
  Proof.
    unfold all_cancelled, tasks_ok, abort. cbn [st_tasks]. rewrite Forall_forall. intros y Hy. apply in_map_iff in Hy.
    destruct Hy as [x [<- _]]. intros _. exact I.
  Qed.

  Definition sig_ok (sg : signal) : Prop := sg = SGo \/ exists e, sg = SThrow e.

  Lemma main_step_cancelled fr sg st :
    main_frame fr = true -> all_cancelled st ->
    all_cancelled (fst (step_frame P main_tid fr sg st))
    \/ (fr = FChartAfterStart /\ snd (step_frame P main_tid fr sg st) = DCont [FRunWait; FChartAfterRun] SGo).
  Proof.
    intros Hm H. unfold all_cancelled in *.
    destruct fr; try discriminate Hm; destruct sg; cbn [step_frame]; unfold reduced; repeat break_match; cbn [fst snd];
      first [left; c_prims; fail | right; split; reflexivity].
  Qed.

  Lemma run_wait_step sg st :
    sig_ok sg -> NoDup (map t_id (st_tasks st)) -> stacks_ok st ->
    (step_frame P main_tid FRunWait sg st = (st, DSuspend (WCond CRun) [FRunWait]))
    \/ (all_cancelled (fst (step_frame P main_tid FRunWait sg st))
        /\ exists sg', snd (step_frame P main_tid FRunWait sg st) = DRet sg').
  Proof.
    intros [->|[e ->]] Hd Hs; cbn [step_frame].
    - destruct (run_pred P st); [|left; reflexivity]. right.
      destruct (task_errors st); cbn [fst snd]; (split; [apply cancel_all_helpers; assumption|eauto]).
    - right. cbn [fst snd]. split; [apply cancel_all_helpers; assumption|eauto].
  Qed.

  Lemma exec_main fuel k sg st :
    evolves (init_state) st -> stacks_ok st -> chainb k = true -> main_stack k = true ->
    ((k = [FRunWait; FChartAfterRun] /\ sig_ok sg) \/ all_cancelled st) ->
    phase_ok (exec P fuel main_tid k sg st).
  Proof.
    intros E0 S0 C0 M0 D0.
    assert (V : forall s x ts, find_task main_tid (st_tasks s) = Some x -> cancelled_TP (with_ts x ts)).
    { intros s x ts Hx Hi. cbn in Hi. destruct (find_task_in _ _ _ Hx) as [_ Hid]. congruence. }
    apply (exec_rule P main_tid
             (fun k sg s => evolves (init_state) s /\ stacks_ok s /\ chainb k = true /\ main_stack k = true
                            /\ ((k = [FRunWait; FChartAfterRun] /\ sig_ok sg) \/ all_cancelled s))
             phase_ok); [| |auto 6].
    - intros sg' s [_ [_ [_ [_ [[Hk _]|Hc]]]]]; [discriminate Hk|]. right.
      apply ok_set_tstate; [exact Hc|]. intros x Hx _. apply (V s). exact Hx.
    - intros fr rest sg' s [He [Hs [Hc [Hm Hd]]]]. split; [right; apply all_cancelled_abort|].
      destruct (evolved_shape s He) as [x0 [rest0 [_ [_ [_ [_ [Hnd Hn]]]]]]].
      pose proof (step_frame_dir_ok P main_tid fr sg' s) as Hdir.
      pose proof (step_frame_tasks_ok P stack_TP stack_TP_wake stack_TP_cancel_ready stack_TP_cancel_wait stack_TP_spawn main_tid fr sg' s Hn Hs) as Hs1.
      pose proof (evolves_trans _ _ _ He (ev_step_frame P main_tid fr sg' s)) as He1.
      assert (Hmf : main_frame fr = true).
      { unfold main_stack in Hm. cbn [forallb] in Hm. apply andb_true_iff in Hm. apply Hm. }
      destruct Hd as [[Hk Hsg]|Hcan].
      + (* inside run(): the frame is FRunWait *)
        inversion Hk; subst fr rest. destruct (run_wait_step sg' s Hsg Hnd Hs) as [Hw|[Hcan [sg'' Hr]]].
        * rewrite Hw. left. apply (main_TP_set in_run _ s He). reflexivity.
        * destruct (step_frame P main_tid FRunWait sg' s) as [st1 d]. cbn [fst snd] in *. subst d.
          split; [exact He1|]. split; [exact Hs1|]. split; [reflexivity|]. split; [reflexivity|]. right. exact Hcan.
      + destruct (main_step_cancelled fr sg' s Hmf Hcan) as [Hcan1|[Hfr Hdd]].
        * destruct (step_frame P main_tid fr sg' s) as [st1 [w k'|k'|k' sg''|sg'']]; cbn [fst snd dir_ok] in *.
          -- right. apply ok_suspend; [exact Hcan1|]. intros x Hx _. apply (V st1). exact Hx.
          -- right. apply ok_push_ready. apply ok_set_tstate; [exact Hcan1|]. intros x Hx _. apply (V st1). exact Hx.
          -- destruct (seg_ok_app fr rest k' Hc Hm Hdir) as [A B]. auto 6.
          -- split; [exact He1|]. split; [exact Hs1|]. split; [apply (chainb_tail fr); exact Hc|].
             split; [apply (main_stack_tail fr); exact Hm|]. right. exact Hcan1.
        * subst fr. assert (rest = []) by (apply (below_chart FChartAfterStart); [reflexivity|exact Hc]). subst rest.
          destruct (step_frame P main_tid FChartAfterStart sg' s) as [st1 d]. cbn [fst snd] in *. subst d.
          split; [exact He1|]. split; [exact Hs1|]. split; [reflexivity|]. split; [reflexivity|]. left. split; [reflexivity|]. left. reflexivity.
  Qed.

  Lemma stacks_of (st : mstate) x : stacks_ok st -> In x (st_tasks st) -> stack_TP x.
  Proof. apply tasks_ok_in. Qed.

  Lemma cancelled_ready_signal st x k sg :
    all_cancelled st -> In x (st_tasks st) -> t_id x <> main_tid -> t_state x = TReady k sg -> sg = SThrow XCancelled.
  Proof.
    intros H Hin Hne Ht. pose proof (tasks_ok_in _ _ _ H Hin Hne) as Hx. rewrite Ht in Hx.
    destruct sg as [| | |[]|]; try contradiction. reflexivity.
  Qed.

  Theorem reachable_phase_ok : forall st, reachable P st -> phase_ok st.
  Proof.
    apply (reachable_inv P phase_ok).
    - right. unfold all_cancelled, tasks_ok, init_state. cbn. constructor; [|constructor]. intros H. exfalso. apply H. reflexivity.
    - intros st Hr H. pose proof (reachable_stacks_ok P st Hr) as Hs. pose proof (ev_reachable P st Hr) as He.
      apply (loop_step_rule P phase_ok); [auto| |].
      + intros. destruct H as [H|H]; [left|right]; apply ok_dequeue; exact H.
      + intros t rest x k sg Hq Hf Ht. destruct (find_task_in _ _ _ Hf) as [Hin Hid].
        pose proof (stacks_of st x Hs Hin) as [_ Hx]. rewrite Ht in Hx. destruct Hx as [[Hne [Hc Hm]] Hsg].
        destruct (Nat.eq_dec t main_tid) as [->|Hne'].
        * apply exec_main.
          -- eapply evolves_trans; [exact He|apply ev_dequeue].
          -- apply ok_dequeue. exact Hs.
          -- exact Hc.
          -- apply Hm. exact Hid.
          -- destruct H as [H|H].
             ++ left. pose proof (tasks_ok_in _ _ _ H Hin Hid) as Hk. rewrite Ht in Hk. split; [exact Hk|].
                destruct Hsg as [ -> | -> ]; [left; reflexivity|right; eauto].
             ++ right. apply ok_dequeue. exact H.
        * destruct H as [H|H].
          -- apply (exec_other_main in_run in_run_stable P t phase_ok); [exact Hne'| | | |apply ok_dequeue; exact H].
             ++ intros s Hs1. left. exact Hs1.
             ++ intros s _. right. apply all_cancelled_abort.
             ++ cbn. exact (reachable_next P st Hr).
          -- right. rewrite <- Hid in Hne'. rewrite (cancelled_ready_signal st x k sg H Hin Hne' Ht).
             apply unwind_exec; [exact Hc|apply ok_dequeue; exact H].
    - intros st g _ [H|H]; [left; apply (main_gate in_run in_run_stable)|right; apply (complete_gate_tasks_ok cancelled_TP cancelled_wake)]; exact H.
    - intros st _ [H|H]; [left; apply (main_cancel in_run in_run_stable)
                         |right; apply (ok_cancel_task cancelled_TP cancelled_cancel_ready cancelled_cancel_wait)]; exact H.
  Qed.

  Lemma after_done_all_cancelled st : reachable P st -> main_done st = true -> all_cancelled st.
  Proof.
    intros Hr Hd. destruct (reachable_phase_ok st Hr) as [H|H]; [|exact H]. exfalso.
    apply (main_TP_iff in_run st (ev_reachable P st Hr)) in H. destruct H as [ts [E H]].
    unfold main_done in Hd. rewrite E in Hd. destruct ts; try discriminate Hd. exact H.
  Qed.

  Lemma step_after_done st :
    reachable P st -> main_done st = true -> quiet st (loop_step P st) /\ main_done (loop_step P st) = true.
  Proof.
    intros Hr Hd. pose proof (after_done_all_cancelled st Hr Hd) as Hc. pose proof (reachable_stacks_ok P st Hr) as Hs.
    pose proof (proj1 (main_done_iff st (ev_reachable P st Hr)) Hd) as Hdn.
    assert (Hr' : reachable P (loop_step P st)) by exact (reach_step P st AStep Hr).
    rewrite (main_done_iff _ (ev_reachable P _ Hr')).
    apply (loop_step_rule P (fun s => quiet st s /\ tasks_ok (main_TP ended) s)).
    - intros _. split; [apply (I_refl _ quiet_same)|exact Hdn].
    - intros. split; [apply (I_dequeue _ quiet_same)|apply ok_dequeue; exact Hdn].
    - intros t rest x k sg Hq Hf Ht. destruct (find_task_in _ _ _ Hf) as [Hin Hid].
      pose proof (stacks_of st x Hs Hin) as [_ Hx]. rewrite Ht in Hx. destruct Hx as [[_ [Hch _]] _].
      assert (Hne : t_id x <> main_tid).
      { intros E. pose proof (tasks_ok_in _ _ _ Hdn Hin E) as Hx. rewrite Ht in Hx. exact Hx. }
      rewrite (cancelled_ready_signal st x k sg Hc Hin Hne Ht). rewrite Hid in Hne. split.
      + eapply quiet_trans; [apply (I_dequeue _ quiet_same)|]. apply unwind_exec; [exact Hch|apply ok_dequeue; exact Hc].
      + apply (exec_other_main ended ended_stable P t (tasks_ok (main_TP ended))); [exact Hne|auto| | |apply ok_dequeue; exact Hdn].
        * intros s. apply ok_abort. intros y r _ _. exact I.
        * cbn. exact (reachable_next P st Hr).
  Qed.

  Lemma action_after_done st0 a st :
    reachable P st -> quiet st0 st /\ main_done st = true ->
    quiet st0 (apply_action P a st) /\ main_done (apply_action P a st) = true.
  Proof.
    revert a st. apply action_rule.
    - intros st Hr [Q Hd]. destruct (step_after_done st Hr Hd) as [Q1 D1]. split; [eapply quiet_trans; eassumption|exact D1].
    - intros st g Hr [Q Hd]. split; [apply (I_wake_all _ quiet_trans quiet_same), Q|].
      rewrite (main_done_iff _ (ev_reachable P _ (reach_step P st (AGate g) Hr))). apply (main_gate ended ended_stable).
      apply (main_done_iff st (ev_reachable P st Hr)). exact Hd.
    - intros st Hr [Q Hd]. split; [apply (I_cancel_task _ quiet_trans quiet_same), Q|].
      rewrite (main_done_iff _ (ev_reachable P _ (reach_step P st ACancel Hr))). apply (main_cancel ended ended_stable).
      apply (main_done_iff st (ev_reachable P st Hr)). exact Hd.
  Qed.

  (* C13 (ii): after PipelineChart.run has returned or raised, whatever the loop does next (any further steps, late
     completions of executor work, timers, callbacks), no node body, get_default, event callback, save or timer is started
     and no task is created *)
  Theorem silent_after_run sched st :
    reachable P st -> main_done st = true ->
    quiet st (fold_left (fun s a => apply_action P a s) sched st)
    /\ main_done (fold_left (fun s a => apply_action P a s) sched st) = true.
  Proof.
    intros Hr Hd. apply (sched_rule P (fun s => quiet st s /\ main_done s = true)); [|exact Hr|split; [apply (I_refl _ quiet_same)|exact Hd]].
    intros a s. apply action_after_done.
  Qed.
End Cancel.
