(* ALL programs, every schedule: what one resumption of a frame can do, and invariants that hold at every configuration.
   - One frame step: the entries it appends to the history, by the frame that logs them (step_obs); the tasks it creates
     (spawns); the frames it leaves on the stack (pushes); what it changes in the stored results, the recorded switch selections
     and the additional data (step_changes).
   - A claim T about the state of every task, indexed by the history, together with a claim H about storage, additional data and
     history, holds at every configuration of Proofs/Micro.v if T survives wake-up and cancellation and every frame step
     preserves both (creach_tstate_inv); special cases for claims about the state alone, about a stack and the signal it is
     resumed with, about a stack, and about every frame of a stack. *)
From MLPE Require Import Engine.Run Proofs.ExecLemmas Proofs.Evolve Proofs.Micro Proofs.PlainLaunch Proofs.PlainLive Proofs.PlainCore Proofs.PlainInv
     Proofs.AssocLemmas.

Lemma estack_cstate k sg : estack (cstate k sg) = k.
Proof. destruct k; reflexivity. Qed.
Lemma estack_nstate rest d : estack (nstate rest d) = dir_frames d ++ rest.
Proof. destruct d as [w k'|k'|k' sg'|sg']; cbn [nstate dir_frames app]; try reflexivity; [destruct (k' ++ rest)|destruct rest]; reflexivity. Qed.

(* the history is kept newest first: b is what came before o *)
Definition after_each (Q : obs -> list obs -> Prop) (tr : list obs) : Prop := forall a o b, tr = a ++ o :: b -> Q o b.

Lemma after_each_one (Q : obs -> list obs -> Prop) o : Q o [] -> after_each Q [o].
Proof. intros H a o' b E. destruct a as [|y a']; [inversion E; subst; exact H|]. inversion E. destruct a'; discriminate. Qed.

(* new entries may be judged against the old history when Q only gains from a longer one *)
Lemma after_each_app (Q : obs -> list obs -> Prop) new tr :
  (forall o b b', Q o b -> Q o (b' ++ b)) -> after_each Q tr -> (forall o, In o new -> Q o tr) -> after_each Q (new ++ tr).
Proof.
  intros Hm Ht. induction new as [|x r IH]; intros Hn; [exact Ht|]. intros a o b E. destruct a as [|y a'].
  - inversion E; subst. apply Hm. apply Hn. left. reflexivity.
  - inversion E. apply (IH (fun o' Ho' => Hn o' (or_intror Ho')) a' o b). assumption.
Qed.

(* the case analysis of one frame step: every (frame, signal) pair and every branch the engine takes on it *)
Ltac step_cases :=
  match goal with
  | |- context [step_frame _ _ ?fr ?sg _] =>
    destruct fr; destruct sg; cbn [step_frame]; unfold default_or_raise, reduced; repeat break_match; spawn_norm
  end.

Section Steps.
  Variable P : prog.
  Notation G := (b_graph (build (p_decls P) (p_inp P) (p_out P))).

  (* where the engine creates a task: the frame it starts with, by the frame and signal of the step that creates it *)
  Definition spawns (fr : frame) (sg : signal) (f : frame) : Prop :=
    match f with
    | FDagStart d => fr = FChartAfterStart \/ exists d' h c rest, fr = FOneOfLoop d' h (c :: rest)
    | FSwitchStart d n => exists rest l, fr = FDagLoop d (n :: rest) l /\ is_switch G n = true
    | FOneOfLoop d n cs =>
      exists rest l, fr = FDagLoop d (n :: rest) l /\ is_switch G n = false /\ is_head G n = true /\ cs = na_cands (nattr_of G n)
    | FNodeStart d n force => exists rest l, fr = FDagLoop d (n :: rest) l /\ is_switch G n = false /\ is_head G n = false /\ force = false
    | FRecStart d n res => fr = FNodeAfterExec d n /\ sg = SVal res /\ is_rec res = true
    | _ => False
    end.

  Lemma spawns_spawn_frame fr sg f : spawns fr sg f -> spawn_frame f = true.
  Proof. destruct f; cbn [spawns]; try contradiction; reflexivity. Qed.

  (* step_frame_tasks_ok with the condition on new tasks restricted to the tasks this step creates *)
  Lemma step_tasks_spawns (TP : task frame -> Prop) t fr sg st :
    (forall x w k, t_state x = TWait w k -> TP x -> TP (with_ts x (TReady k SGo))) ->
    (forall x k s, t_state x = TReady k s -> TP x -> TP (with_ts x (TReady k (SThrow XCancelled)))) ->
    (forall x w k, t_state x = TWait w k -> TP x -> TP (with_ts x (TReady k (SThrow XCancelled)))) ->
    (forall nm f, spawns fr sg f -> TP {| t_id := st_next st; t_name := nm; t_state := TReady [f] SGo; t_helper := true |}) ->
    tasks_ok TP st -> tasks_ok TP (fst (step_frame P t fr sg st)).
  Proof.
    intros Hw Hcr Hcw Hsp H. step_cases; cbn [fst];
      repeat first
             [ assumption
             | apply ok_notify | apply ok_notify_keys | apply ok_set_event | apply ok_cancel_tasks | apply ok_cancel_task
             | apply ok_finally_a | apply ok_finally_b | apply ok_emit_obs | apply ok_with_store | apply ok_bump
             | apply ok_set_adddata | apply ok_push_ready | apply ok_fold_hide | apply ok_wake_all
             | (apply ok_spawn; [|apply Hsp; cbn [spawns]; eauto 8]) ].
  Qed.

  (* a predicate of the stack alone is kept by waking and cancelling *)
  Lemma step_tasks_estack (S : list frame -> Prop) t fr sg st :
    (forall f, spawns fr sg f -> S [f]) ->
    tasks_ok (fun x => S (estack (t_state x))) st -> tasks_ok (fun x => S (estack (t_state x))) (fst (step_frame P t fr sg st)).
  Proof. intros Hs. apply step_tasks_spawns; try (intros x ? ? E Hx; cbn; rewrite E in Hx; exact Hx). intros nm f Hf. exact (Hs f Hf). Qed.

  (* where an entry of the history comes from: the frame that was resumed (and the signal, where it carries the payload) *)
  Definition obs_origin (st : mstate) (fr : frame) (sg : signal) (o : obs) : Prop :=
    match o with
    | OStart i k kw => exists att, fr = FRetry i false kw att /\ k = ctr_get (CBody i) st
    | ODefault i kw =>
      (exists att, fr = FRetry i true kw att) \/ (exists att, fr = FRetryAfterBody i kw att /\ ns_default (nspec_of P i) = true)
    | OEmit m ev n err res => fr = FEmit ev n err res m false
    | OSave n v => exists k, fr = FSave n v false k
    | OSleep i d => exists kw att, fr = FRetryAfterEmit i kw att
    | OSetResult n v =>
      (exists d, fr = FNodeAfterExec d n /\ sg = SVal v) \/
      (exists d c od rest, fr = FOneOfWait d n c od rest /\ v = get_result c true (st_store st) /\ exists_result c (st_store st) = true) \/
      (exists d, fr = FOneOfLoop d n [] /\ v = VExn (XEng EOneOfNoResult n)) \/
      (exists d, fr = FSwitchStart d n /\ v = VExn (XEng ESwitchNoBranch n)) \/
      (exists d s rsub res, fr = FRecLoop d n s rsub 0 res /\ v = VExn (XEng ERecNoResult n))
    | OHide n => (exists d, fr = FDagStart d /\ d_rec d = true) \/ (exists d s rsub res, fr = FRecLoop d n s rsub 0 res)
    | OProcessed n => exists d force, fr = FExecStart d n force
    | OSpawn i nm => i = st_next st /\ match nm with TNDag _ c => exists d h rest, fr = FOneOfLoop d h (c :: rest) | _ => True end
    | ORunDone _ => fr = FRunWait
    end.

  (* [grows] is opaque here so that no [apply] of the search unfolds it *)
  Local Opaque grows.
  Lemma step_obs t fr sg st : grows (obs_origin st fr sg) st (fst (step_frame P t fr sg st)).
  Proof.
    step_cases; cbn [fst]; grows_prims; try (intros k _); cbn [obs_origin];
      (* _run_oneof takes the candidate's result when no node of its sub-pipeline has failed: then the result exists *)
      try match goal with Hp : oneof_pred _ _ _ = true, He : has_subgraph_error _ _ = false |- _ =>
            unfold oneof_pred in Hp; rewrite He in Hp; apply andb_true_iff in Hp; destruct Hp end;
      eauto 12.
  Qed.
  Local Transparent grows.
  (* The frames a step leaves on the stack in place of the frame it resumed: nothing (the frame returns), the frame itself
     (it waits), its successor in the same coroutine, or a callee's first frame on top of that successor; with the condition
     under which the engine takes that branch where an invariant needs it (elsewhere the arguments are left free: the relation
     is an upper bound of what a step pushes). *)
  Inductive pushes (st : mstate) : frame -> signal -> list frame -> Prop :=
  | pu_run_wait : pushes st FRunWait SGo [FRunWait]
  | pu_dag_wait d n rest l : pushes st (FDagLoop d (n :: rest) l) SGo [FDagLoop d (n :: rest) l]
  | pu_final_wait d : pushes st (FDagFinal d) SGo [FDagFinal d]
  | pu_oneof_wait d h c od rest : pushes st (FOneOfWait d h c od rest) SGo [FOneOfWait d h c od rest]
  | pu_chart_start : pushes st FChartStart SGo [FEmit EvPipelineStart None None None 0 false; FChartAfterStart]
  | pu_chart_pool v : pushes st FChartAfterStart (SVal v) [FChartAfterRun]
  | pu_chart_run v : pushes st FChartAfterStart (SVal v) [FRunWait; FChartAfterRun]
  | pu_chart_ok v : pushes st FChartAfterRun (SVal v) [FEmit EvPipelineComplete None None (Some v) 0 false; FChartAfterEmitOk v]
  | pu_chart_err e : is_Exception e = true ->
                     pushes st FChartAfterRun (SThrow e) [FEmit EvPipelineComplete None (Some e) None 0 false; FChartAfterEmitErr e]
  | pu_chart_err' v e : is_Exception e = true ->
                        pushes st (FChartAfterEmitOk v) (SThrow e) [FEmit EvPipelineComplete None (Some e) None 0 false; FChartAfterEmitErr e]
  | pu_emit_wait ev n err res mgr : pushes st (FEmit ev n err res mgr false) SGo [FEmit ev n err res mgr true]
  | pu_emit_next ev n err res mgr r : pushes st (FEmit ev n err res mgr r) SGo [FEmit ev n err res (S mgr) false]
  | pu_save n v k0 k : pushes st (FSave n v false k0) SGo [FSave n v true k]
  | pu_dag_start d order : pushes st (FDagStart d) SGo [FDagLoop d order []]
  | pu_dag_next d n rest l l' : pushes st (FDagLoop d (n :: rest) l) SGo [FDagLoop d rest l']
  | pu_dag_final d l : pushes st (FDagLoop d [] l) SGo [FDagFinal d]
  | pu_switch d n rd : pushes st (FSwitchStart d n) SGo [FDagStart rd; FSwitchAfter n]
  | pu_oneof_try d h c rest od : od = snd (reduced P st (b_input (build (p_decls P) (p_inp P) (p_out P))) c true true) ->
                                 pushes st (FOneOfLoop d h (c :: rest)) SGo [FOneOfWait d h c od rest]
  | pu_oneof_next d h c od rest : has_subgraph_error (st_store st) od = true -> pushes st (FOneOfWait d h c od rest) SGo [FOneOfLoop d h rest]
  | pu_node d n force : pushes st (FNodeStart d n force) SGo [FExecStart d n force; FNodeAfterExec d n]
  | pu_node_nosave d n res unlock : pushes st (FNodeAfterExec d n) (SVal res) [FNodeAfterSave d n unlock]
  | pu_node_save d n res unlock : (is_rec res || is_exn res)%bool = false ->
                                  pushes st (FNodeAfterExec d n) (SVal res) [FSave n res false 0; FNodeAfterSave d n unlock]
  | pu_exec_dup d n force : pushes st (FExecStart d n force) SGo [FExecDup n]
  | pu_exec d n force : pushes st (FExecStart d n force) SGo [FEmit EvNodeStart (Some n) None None 0 false; FExecAfterStart d n force]
  | pu_exec_nokw d n force v : pushes st (FExecAfterStart d n force) (SVal v) [FExecAfterBody d n]
  | pu_exec_body d n force v kw : node_kwargs P st n = Some kw ->
                                  pushes st (FExecAfterStart d n force) (SVal v) [FRetry (real_index n) force kw 1; FExecAfterBody d n]
  | pu_exec_ok d n v : pushes st (FExecAfterBody d n) (SVal v) [FEmit EvNodeComplete (Some n) None None 0 false; FExecAfterOk d n v]
  | pu_body_err d n e : pushes st (FExecAfterBody d n) (SThrow e) [FEmit EvNodeComplete (Some n) (Some e) None 0 false; FExecAfterErr d e]
  | pu_ok_err d n v e : pushes st (FExecAfterOk d n v) (SThrow e) [FEmit EvNodeComplete (Some n) (Some e) None 0 false; FExecAfterErr d e]
  | pu_retry_body i kw att : pushes st (FRetry i false kw att) SGo [FRetryAfterBody i kw att]
  | pu_retry_emit i kw att c : retry_decide (nspec_of P i) (p_body P i kw (Nat.pred att)) att = RDRetry c ->
      pushes st (FRetryAfterBody i kw att) SGo [FEmit EvNodeComplete (Some (KN i)) (Some (XNode c i (Nat.pred att))) None 0 false; FRetryAfterEmit i kw att]
  | pu_retry_sleep i kw att v : pushes st (FRetryAfterEmit i kw att) (SVal v) [FRetryAfterSleep i kw att]
  | pu_retry_again i kw att : pushes st (FRetryAfterSleep i kw att) SGo [FRetry i false kw (S att)]
  | pu_rec_enter d n res s : na_start (nattr_of G n) = Some s ->
      pushes st (FRecStart d n res) SGo
             [FRecLoop d n s (rec_subgraph P s n (d_oneof d)) (match na_maxit (nattr_of G n) with Some m => m | None => 0 end) res]
  | pu_rec_iter d n s rsub r res : pushes st (FRecLoop d n s rsub (S r) res) SGo [FDagStart rsub; FRecAfterIter d n s rsub r]
  | pu_rec_default d n s rsub res : (is_rec res && ns_default (nspec_of P (real_index n)))%bool = true ->
                                    pushes st (FRecLoop d n s rsub 0 res) SGo [FNodeStart d n true; FRecAfterDefault s n]
  | pu_rec_again d n s rsub r res : negb (is_rec res) = false -> pushes st (FRecAfterIter d n s rsub r) (SVal res) [FRecLoop d n s rsub r res].

  Lemma step_pushes t fr sg st :
    (exists s', snd (step_frame P t fr sg st) = DRet s') \/ pushes st fr sg (dir_frames (snd (step_frame P t fr sg st))).
  Proof.
    step_cases; cbn [snd dir_frames]; unfold emit_frames; try (left; eexists; reflexivity); try (right; econstructor; eauto; fail); try discriminate; right.
    - apply pu_node_save. match goal with Hr : is_rec _ = false |- _ => rewrite Hr end. assumption.
    - match goal with Hs : na_start _ = Some _, Hm : na_maxit _ = _ |- _ => pose proof (pu_rec_enter st d n res _ Hs) as Hp; rewrite Hm in Hp; exact Hp end.
    - match goal with Hs : na_start _ = Some _, Hm : na_maxit _ = _ |- _ => pose proof (pu_rec_enter st d n res _ Hs) as Hp; rewrite Hm in Hp; exact Hp end.
  Qed.

  Lemma step_pushed t fr sg st f : In f (dir_frames (snd (step_frame P t fr sg st))) -> exists k', pushes st fr sg k' /\ In f k'.
  Proof. destruct (step_pushes t fr sg st) as [[s' ->]|Hp]; [intros []|eauto]. Qed.

  Lemma step_dir_ne t fr sg st : dir_ne (snd (step_frame P t fr sg st)) = true.
  Proof.
    destruct (step_pushes t fr sg st) as [[s' ->]|Hp]; [reflexivity|].
    destruct (snd (step_frame P t fr sg st)) as [w k'|k'|k' s'|s']; cbn [dir_ne dir_frames] in *; try reflexivity; destruct Hp; reflexivity.
  Qed.

  (* a result is stored together with its entry in the history; a selection is recorded by _run_switch, from the case table and
     the value of the decision node; additional data are set when an iteration of a recurrent subgraph starts, from the marker
     that asked for it.  st0 and fr are the state and the frame of the step the change belongs to. *)
  Definition sel_origin (st0 : mstate) (fr : frame) (n : key) (lbl : value) (c : key) : Prop :=
    (exists d, fr = FSwitchStart d n) /\ switch_case_for P n lbl = Some c /\
    lbl = match switch_decider P n with Some dn => get_result dn false (st_store st0) | None => VNone end.
  Definition ad_origin (fr : frame) (s : key) (v : value) : Prop :=
    exists d n rsub r res, fr = FRecLoop d n s rsub (S r) res /\ v = rec_data res.
  Definition changes (st0 : mstate) (fr : frame) (st st' : mstate) : Prop :=
    (exists new, st_trace st' = new ++ st_trace st) /\
    (forall n v, alookup key_eqb n (s_results (st_store st')) = Some v ->
                 alookup key_eqb n (s_results (st_store st)) = Some v \/ In (OSetResult n v) (st_trace st')) /\
    (forall n lbl c, get_switch n (st_store st') = Some (lbl, c) -> get_switch n (st_store st) = Some (lbl, c) \/ sel_origin st0 fr n lbl c) /\
    (forall s v, alookup key_eqb s (st_adddata st') = Some v -> alookup key_eqb s (st_adddata st) = Some v \/ ad_origin fr s v).

  Lemma alookup_aset_inv {V} (k k0 : key) (v v0 : V) l :
    alookup key_eqb k (aset key_eqb k0 v0 l) = Some v -> (k = k0 /\ v = v0) \/ alookup key_eqb k l = Some v.
  Proof.
    intros E. destruct (key_eqb k k0) eqn:Ek.
    - apply key_eqb_spec in Ek. subst k0. rewrite (alookup_aset_same key_eqb key_eqb_spec) in E. inversion E. left. split; reflexivity.
    - right. rewrite (alookup_aset_other key_eqb key_eqb_spec) in E; [exact E|]. intros ->. rewrite key_eqb_refl in Ek. discriminate Ek.
  Qed.

  Section Changes.
    Variable st0 : mstate.
    Variable fr : frame.
    Notation chg := (changes st0 fr).
    Lemma chg_trans a b c : chg a b -> chg b c -> chg a c.
    Proof.
      intros ([n1 E1] & R1 & S1 & A1) ([n2 E2] & R2 & S2 & A2). split; [exists (n2 ++ n1); rewrite E2, E1, app_assoc; reflexivity|]. split; [|split].
      - intros n v E. destruct (R2 n v E) as [E'|Hin]; [|right; exact Hin]. destruct (R1 n v E') as [E''|Hin]; [left; exact E''|].
        right. rewrite E2. apply in_or_app. right. exact Hin.
      - intros n l c0 E. destruct (S2 n l c0 E) as [E'|Ho]; [exact (S1 n l c0 E')|right; exact Ho].
      - intros s v E. destruct (A2 s v E) as [E'|Ho]; [exact (A1 s v E')|right; exact Ho].
    Qed.
    Lemma chg_keep st st' new :
      s_results (st_store st') = s_results (st_store st) -> s_switch (st_store st') = s_switch (st_store st) ->
      st_adddata st' = st_adddata st -> st_trace st' = new ++ st_trace st -> chg st st'.
    Proof. intros E1 E2 E3 E4. unfold changes, get_switch. rewrite E1, E2, E3. split; [exists new; exact E4|]. repeat split; intros; left; assumption. Qed.
    Lemma chg_same st st' :
      st_store st' = st_store st -> st_adddata st' = st_adddata st -> st_trace st' = st_trace st -> st_next st' = st_next st -> chg st st'.
    Proof. intros E1 E2 E3 _. apply (chg_keep st st' []); [rewrite E1; reflexivity|rewrite E1; reflexivity|exact E2|exact E3]. Qed.
    Lemma chg_emit o st : chg st (emit_obs o st). Proof. apply (chg_keep _ _ [o]); reflexivity. Qed.
    Lemma chg_spawn nm h k st : chg st (fst (spawn nm h k st)). Proof. apply (chg_keep _ _ [OSpawn (st_next st) nm]); reflexivity. Qed.
    Lemma chg_store (f : storage -> storage) st :
      (forall s, s_results (f s) = s_results s) -> (forall s, s_switch (f s) = s_switch s) -> chg st (with_store f st).
    Proof. intros H1 H2. apply (chg_keep _ _ []); cbn [with_store st_store]; auto. Qed.
    Lemma chg_set_result n v st : chg st (emit_obs (OSetResult n v) (with_store (set_result n v) st)).
    Proof.
      split; [exists [OSetResult n v]; reflexivity|]. split; [|split; intros; left; assumption].
      intros n' v' E. cbn in E. apply alookup_aset_inv in E. destruct E as [[-> ->]|E]; [right; left; reflexivity|left; exact E].
    Qed.
    Lemma chg_set_switch n lbl c st : sel_origin st0 fr n lbl c -> chg st (with_store (set_switch n lbl c) st).
    Proof.
      intros Ho. split; [exists []; reflexivity|]. split; [intros; left; assumption|]. split; [|intros; left; assumption].
      intros n' l' c' E. unfold get_switch in *. cbn in E. apply alookup_aset_inv in E. destruct E as [[-> E]|E]; [inversion E; subst; right; exact Ho|left; exact E].
    Qed.
    Lemma chg_set_adddata s v st : ad_origin fr s v -> chg st (set_adddata s v st).
    Proof.
      intros Ho. split; [exists []; reflexivity|]. split; [intros; left; assumption|]. split; [intros; left; assumption|].
      intros s' v' E. cbn in E. apply alookup_aset_inv in E. destruct E as [[-> ->]|E]; [right; exact Ho|left; exact E].
    Qed.
  End Changes.

  Lemma hide_all_keeps ks s : s_results (hide_all ks s) = s_results s /\ s_switch (hide_all ks s) = s_switch s.
  Proof. unfold hide_all. revert s. induction ks as [|k r IH]; intros s; cbn [fold_left]; [split; reflexivity|]. exact (IH (hide1 k s)). Qed.

  (* opaque for the same reason as [grows] above *)
  Local Opaque changes.
  Lemma step_changes t fr sg st : changes st fr st (fst (step_frame P t fr sg st)).
  Proof.
    step_cases; cbn [fst];
      match goal with
      | |- changes ?s ?f _ _ =>
        inert_prims (chg_trans s f) (chg_same s f)
                    ltac:(first
                            [ apply chg_set_result | apply chg_emit | apply chg_spawn
                            | apply (R_fold_hide _ (chg_trans s f) (chg_emit s f))
                            | (apply chg_set_switch; split; [eexists; reflexivity|split; [eassumption|]];
                               match goal with Hd : switch_decider _ _ = _ |- _ => rewrite Hd; reflexivity end)
                            | (apply chg_set_adddata; do 5 eexists; split; reflexivity)
                            | (apply chg_store; intros s0; first [reflexivity | apply hide_all_keeps]) ])
      end.
  Qed.
  Local Transparent changes.
End Steps.

Section TstateInv.
  Variable P : prog.
  (* T tr i ts: task i may be in state ts when the history is tr;  H: what is claimed of the rest of the state, as far as
     waking, cancelling and rescheduling tasks leave it alone (its core: storage, additional data, events, history, next id) *)
  Variable T : list obs -> tid -> tstate frame -> Prop.
  Variable H : mstate -> Prop.

  Definition TT (tr : list obs) (x : task frame) : Prop := T tr (t_id x) (t_state x).
  Definition cur_T (tr : list obs) (c : running) : Prop := match c with Some (t, k, sg) => T tr t (cstate k sg) | None => True end.

  Hypothesis T_mono : forall new tr i ts, T tr i ts -> T (new ++ tr) i ts.
  Hypothesis T_wake : forall tr i w k, T tr i (TWait w k) -> T tr i (TReady k SGo).
  Hypothesis T_cancel_ready : forall tr i k sg, T tr i (TReady k sg) -> T tr i (TReady k (SThrow XCancelled)).
  Hypothesis T_cancel_wait : forall tr i w k, T tr i (TWait w k) -> T tr i (TReady k (SThrow XCancelled)).
  Hypothesis T_abort : forall tr i k, T tr i (TDone (SThrow (XEng EOutOfFuel k))).
  Hypothesis T_init : T (st_trace init_state) main_tid (TReady [FChartStart] SGo).
  Hypothesis H_init : H init_state.
  Hypothesis H_core : forall a b, same_core a b -> H a -> H b.
  (* a task recorded as Ready with an empty stack is treated as finished when it gets its turn ([cstate]); no such task
     exists, but showing that is up to the instance *)
  Hypothesis T_start : forall st t x sg, creach P st None -> find_task t (st_tasks st) = Some x -> t_state x = TReady [] sg ->
                                         T (st_trace st) t (TReady [] sg) -> T (st_trace st) t (TDone sg).
  Hypothesis T_step : forall st t fr rest sg, creach P st (Some (t, fr :: rest, sg)) -> tasks_ok (TT (st_trace st)) st ->
    T (st_trace st) t (TReady (fr :: rest) sg) -> H st ->
    (forall i f, 1 <= i -> spawns P fr sg f -> T (st_trace (fst (step_frame P t fr sg st))) i (TReady [f] SGo)) /\
    T (st_trace (fst (step_frame P t fr sg st))) t (nstate rest (snd (step_frame P t fr sg st))) /\
    H (fst (step_frame P t fr sg st)).

  Lemma TT_wake tr x w k : t_state x = TWait w k -> TT tr x -> TT tr (with_ts x (TReady k SGo)).
  Proof. unfold TT. cbn. intros -> Hx. exact (T_wake _ _ _ _ Hx). Qed.
  Lemma TT_cancel_ready tr x k sg : t_state x = TReady k sg -> TT tr x -> TT tr (with_ts x (TReady k (SThrow XCancelled))).
  Proof. unfold TT. cbn. intros -> Hx. exact (T_cancel_ready _ _ _ _ Hx). Qed.
  Lemma TT_cancel_wait tr x w k : t_state x = TWait w k -> TT tr x -> TT tr (with_ts x (TReady k (SThrow XCancelled))).
  Proof. unfold TT. cbn. intros -> Hx. exact (T_cancel_wait _ _ _ _ Hx). Qed.

  Lemma TT_set tr t ts st : T tr t ts -> tasks_ok (TT tr) st -> tasks_ok (TT tr) (set_tstate t ts st).
  Proof. intros Hts A. apply ok_set_tstate; [exact A|]. intros y Hy _. destruct (find_task_in _ _ _ Hy) as [_ <-]. exact Hts. Qed.

  Theorem creach_tstate_inv : forall st c, creach P st c -> tasks_ok (TT (st_trace st)) st /\ cur_T (st_trace st) c /\ H st.
  Proof.
    intros st c Hc.
    induction Hc as [|st t rest x k sg Hc IH Hq Hf Ht|st t rest Hc IH Hq|st t fr rest sg Hc IH|st t sg Hc IH|st c Hc IH|st g Hc IH|st Hc IH].
    - split; [|split; [exact I|exact H_init]]. constructor; [exact T_init|constructor].
    - destruct IH as (A & _ & C). split; [exact (ok_dequeue _ _ A)|]. split; [|apply (H_core st); [repeat split|exact C]].
      destruct (find_task_in _ _ _ Hf) as [Hin Hid]. unfold tasks_ok in A. rewrite Forall_forall in A. specialize (A x Hin).
      unfold TT in A. rewrite Hid, Ht in A. destruct k; [exact (T_start st t x sg Hc Hf Ht A)|exact A].
    - destruct IH as (A & _ & C). split; [exact (ok_dequeue _ _ A)|]. split; [exact I|apply (H_core st); [repeat split|exact C]].
    - destruct IH as (A & B & C). destruct (T_step st t fr rest sg Hc A B C) as (Sp & N & C1).
      pose proof (ev_next _ _ (creach_evolves P _ _ Hc)) as Hn.
      destruct (ev_trace _ _ (ev_step_frame P t fr sg st)) as [new Etr].
      assert (A1 : tasks_ok (TT (st_trace (fst (step_frame P t fr sg st)))) (fst (step_frame P t fr sg st))).
      { apply step_tasks_spawns; [apply TT_wake|apply TT_cancel_ready|apply TT_cancel_wait|intros nm f Hs; exact (Sp _ f Hn Hs)|].
        rewrite Etr. unfold tasks_ok in *. eapply Forall_impl; [|exact A]. intros y. apply T_mono. }
      rewrite trace_after_step.
      destruct (step_frame P t fr sg st) as [st1 [w k'|k'|k' sg'|sg']]; cbn [after_step fst snd nstate] in *; repeat split; try assumption.
      + unfold suspend. apply (tasks_ok_same _ (set_tstate t (TWait w (k' ++ rest)) st1)); [reflexivity|]. apply TT_set; assumption.
      + exact (H_core _ _ (sc_suspend t w _ st1) C1).
      + apply ok_push_ready. apply TT_set; assumption.
      + exact (H_core _ _ (sc_trans _ _ _ (sc_set_tstate t _ st1) (sc_push_ready t _)) C1).
    - destruct IH as (A & B & C). split; [|split; [exact I|exact (H_core _ _ (sc_set_tstate t _ st) C)]]. apply TT_set; assumption.
    - destruct IH as (A & _ & C). split; [|split; [exact I|]].
      + apply ok_abort; [|exact A]. intros y k _. apply T_abort.
      + apply (H_core st); [|exact C]. repeat split. unfold names, abort. cbn [st_tasks]. rewrite map_map. reflexivity.
    - destruct IH as (A & _ & C). unfold complete_gate. rewrite trace_wake_all. split; [|split; [exact I|exact (H_core _ _ (sc_wake_all _ _ st st (sc_refl st)) C)]].
      apply (complete_gate_tasks_ok _ (TT_wake _)). exact A.
    - destruct IH as (A & _ & C). rewrite trace_cancel_task. split; [|split; [exact I|exact (H_core _ _ (sc_cancel_task _ st st (sc_refl st)) C)]].
      apply (ok_cancel_task _ (TT_cancel_ready _) (TT_cancel_wait _)). exact A.
  Qed.
End TstateInv.

Theorem creach_state_inv P (H : mstate -> Prop) :
  H init_state -> (forall a b, same_core a b -> H a -> H b) ->
  (forall st t fr rest sg, creach P st (Some (t, fr :: rest, sg)) -> H st -> H (fst (step_frame P t fr sg st))) ->
  forall st c, creach P st c -> H st.
Proof.
  intros H0 Hcore Hs st c Hc. destruct (creach_tstate_inv P (fun _ _ _ => True) H) with (st := st) (c := c) as (_ & _ & C); auto.
  intros st0 t fr rest sg Hc0 _ _ C0. split; [trivial|]. split; [trivial|exact (Hs st0 t fr rest sg Hc0 C0)].
Qed.

(* S tr k sg: sg is the signal the task is resumed with, None while it waits *)
Section SigInv.
  Variable P : prog.
  Variable S : list obs -> list frame -> option signal -> Prop.
  Variable H : list obs -> Prop.
  Definition sig_ts (tr : list obs) (ts : tstate frame) : Prop :=
    match ts with TReady k sg => S tr k (Some sg) | TWait _ k => S tr k None | TDone _ => True end.
  Hypothesis S_mono : forall new tr k s, S tr k s -> S (new ++ tr) k s.
  Hypothesis S_nonval : forall tr k s s', (forall v, s' <> Some (SVal v)) -> S tr k s -> S tr k s'.
  Hypothesis S_nil : forall tr s, S tr [] s.
  Hypothesis S_init : S (st_trace init_state) [FChartStart] (Some SGo).
  Hypothesis H_init : H (st_trace init_state).
  Hypothesis S_step : forall st t fr rest sg, creach P st (Some (t, fr :: rest, sg)) -> S (st_trace st) (fr :: rest) (Some sg) -> H (st_trace st) ->
    (forall f, spawns P fr sg f -> S (st_trace (fst (step_frame P t fr sg st))) [f] (Some SGo)) /\
    match snd (step_frame P t fr sg st) with
    | DSuspend _ k' => S (st_trace (fst (step_frame P t fr sg st))) (k' ++ rest) None
    | DYield k' => S (st_trace (fst (step_frame P t fr sg st))) (k' ++ rest) (Some SGo)
    | DCont k' s' => S (st_trace (fst (step_frame P t fr sg st))) (k' ++ rest) (Some s')
    | DRet s' => S (st_trace (fst (step_frame P t fr sg st))) rest (Some s')
    end /\
    H (st_trace (fst (step_frame P t fr sg st))).

  Theorem creach_sig_inv : forall st c, creach P st c ->
    tasks_ok (fun x => sig_ts (st_trace st) (t_state x)) st /\
    (match c with Some (_, k, sg) => S (st_trace st) k (Some sg) | None => True end) /\ H (st_trace st).
  Proof.
    assert (Hcore : forall a b, same_core a b -> H (st_trace a) -> H (st_trace b)) by (intros a b (_ & _ & E & _); rewrite E; trivial).
    intros st c Hc. destruct (creach_tstate_inv P (fun tr _ => sig_ts tr) (fun st => H (st_trace st))) with (st := st) (c := c) as (A & B & C);
      try assumption; try (intros; exact I).
    - intros new tr _ [k sg|w k|r]; cbn [sig_ts]; auto.
    - intros tr _ w k. apply S_nonval. discriminate.
    - intros tr _ k sg. apply S_nonval. discriminate.
    - intros tr _ w k. apply S_nonval. discriminate.
    - intros st0 t fr rest sg Hc0 _ B C. destruct (S_step st0 t fr rest sg Hc0 B C) as (X & Y & Z).
      split; [intros i f _ Hs; exact (X f Hs)|]. split; [|exact Z].
      destruct (snd (step_frame P t fr sg st0)) as [w k'|k'|k' sg'|sg']; cbn [nstate]; [exact Y|exact Y|destruct (k' ++ rest)|destruct rest]; first [exact I|exact Y].
    - split; [exact A|]. split; [|exact C]. destruct c as [[[t k] sg]|]; [|exact I]. destruct k; [apply S_nil|exact B].
  Qed.
End SigInv.

Section StackInv.
  Variable P : prog.
  Variable S : list obs -> list frame -> Prop.
  Variable H : list obs -> Prop.
  Hypothesis S_mono : forall new tr k, S tr k -> S (new ++ tr) k.
  Hypothesis S_nil : forall tr, S tr [].
  Hypothesis S_init : S (st_trace init_state) [FChartStart].
  Hypothesis H_init : H (st_trace init_state).
  Hypothesis S_step : forall st t fr rest sg, creach P st (Some (t, fr :: rest, sg)) -> S (st_trace st) (fr :: rest) -> H (st_trace st) ->
    (forall f, spawns P fr sg f -> S (st_trace (fst (step_frame P t fr sg st))) [f]) /\
    S (st_trace (fst (step_frame P t fr sg st))) (dir_frames (snd (step_frame P t fr sg st)) ++ rest) /\
    H (st_trace (fst (step_frame P t fr sg st))).

  Theorem creach_stack_inv : forall st c, creach P st c ->
    tasks_ok (fun x => S (st_trace st) (estack (t_state x))) st /\
    (match c with Some (_, k, _) => S (st_trace st) k | None => True end) /\ H (st_trace st).
  Proof.
    assert (Hcore : forall a b, same_core a b -> H (st_trace a) -> H (st_trace b)) by (intros a b (_ & _ & E & _); rewrite E; trivial).
    intros st c Hc. destruct (creach_tstate_inv P (fun tr _ ts => S tr (estack ts)) (fun st => H (st_trace st))) with (st := st) (c := c) as (A & B & C);
      try assumption; auto.
    - intros st0 t fr rest sg Hc0 _ B C. destruct (S_step st0 t fr rest sg Hc0 B C) as (X & Y & Z).
      split; [intros i f _ Hs; exact (X f Hs)|]. split; [rewrite estack_nstate; exact Y|exact Z].
    - split; [exact A|]. split; [|exact C]. destruct c as [[[t k] sg]|]; [|exact I]. cbn [cur_T] in B. rewrite estack_cstate in B. exact B.
  Qed.
End StackInv.

Section FramesInv.
  Variable P : prog.
  Variable F : list obs -> frame -> Prop.
  Variable H : list obs -> Prop.
  Hypothesis F_mono : forall new tr f, F tr f -> F (new ++ tr) f.
  Hypothesis F_init : F (st_trace init_state) FChartStart.
  Hypothesis H_init : H (st_trace init_state).
  Hypothesis F_step : forall st t fr rest sg, creach P st (Some (t, fr :: rest, sg)) ->
    (forall f, In f (fr :: rest) -> F (st_trace st) f) -> H (st_trace st) ->
    (forall f, spawns P fr sg f \/ In f (dir_frames (snd (step_frame P t fr sg st))) -> F (st_trace (fst (step_frame P t fr sg st))) f) /\
    H (st_trace (fst (step_frame P t fr sg st))).

  Theorem creach_frames_inv : forall st c, creach P st c ->
    tasks_ok (fun x => forall f, In f (estack (t_state x)) -> F (st_trace st) f) st /\
    (match c with Some (_, k, _) => forall f, In f k -> F (st_trace st) f | None => True end) /\ H (st_trace st).
  Proof.
    apply (creach_stack_inv P (fun tr k => forall f, In f k -> F tr f) H); try assumption.
    - intros new tr k Hk f Hf. apply F_mono, Hk, Hf.
    - intros tr f [].
    - intros f [<-|[]]. exact F_init.
    - intros st t fr rest sg Hc B C. destruct (F_step st t fr rest sg Hc B C) as (X & Z).
      destruct (ev_trace _ _ (ev_step_frame P t fr sg st)) as [new Etr].
      split; [intros f Hs g [<-|[]]; apply X; left; exact Hs|]. split; [|exact Z].
      intros f Hin. apply in_app_or in Hin. destruct Hin as [Hin|Hin]; [apply X; right; exact Hin|].
      rewrite Etr. apply F_mono, B. right. exact Hin.
  Qed.
End FramesInv.
