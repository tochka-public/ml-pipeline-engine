(* Plain programs: the names of the tasks (`names`), which tasks a frame step creates (`creates`), and the roles of the
   tasks by name. That the launcher creates exactly one node task per node, in launch order, is Proofs/PlainRoles.v. *)
From MLPE Require Import Engine.Run Proofs.ExecLemmas Proofs.PlainWorld Proofs.PlainStep.

Definition names (st : mstate) : list tname := map (@t_name frame) (st_tasks st).

Definition same_names (st st' : mstate) : Prop := names st' = names st.
Lemma sn_refl st : same_names st st. Proof. reflexivity. Qed.
Lemma sn_trans a b c : same_names a b -> same_names b c -> same_names a c.
Proof. unfold same_names. congruence. Qed.
Lemma sn_same st st' : st_tasks st' = st_tasks st -> same_names st st'.
Proof. unfold same_names, names. intros ->. reflexivity. Qed.
Lemma sn_push_ready t st : same_names st (push_ready t st). Proof. apply sn_same; reflexivity. Qed.
Lemma sn_set_waiters w st : same_names st (set_waiters w st). Proof. apply sn_same; reflexivity. Qed.
Lemma sn_add_event n st : same_names st (add_event n st). Proof. apply sn_same; reflexivity. Qed.
Lemma sn_emit o st : same_names st (emit_obs o st). Proof. apply sn_same; reflexivity. Qed.
Lemma sn_with_store f st : same_names st (with_store f st). Proof. apply sn_same; reflexivity. Qed.
Lemma sn_bump c st : same_names st (bump c st). Proof. apply sn_same; reflexivity. Qed.
Lemma sn_dequeue st : same_names st (dequeue st). Proof. apply sn_same; reflexivity. Qed.
Lemma sn_set_tstate t ts st : same_names st (set_tstate t ts st).
Proof.
  unfold same_names, names, set_tstate. cbn [st_tasks]. induction (st_tasks st) as [|y r IH]; cbn [upd_task map]; [reflexivity|].
  destruct (Nat.eqb (t_id y) t); cbn [map t_name]; [reflexivity|]. rewrite IH. reflexivity.
Qed.
Definition sn_suspend := R_suspend same_names sn_trans sn_set_waiters sn_set_tstate.

Section Launch.
  Variable P : prog.
  Notation G := (b_graph (build (p_decls P) (p_inp P) (p_out P))).
  Hypothesis Hsw : forall n, is_switch G n = false.
  Hypothesis Hhd : forall n, is_head G n = false.
  Hypothesis Hbody : forall i kw a v, p_body P i kw a = OVal v -> clean v = true.

  Definition creates (fr : frame) (sg : signal) (st : mstate) : list tname :=
    match fr, sg with
    | FChartAfterStart, SVal _ =>
      if (needs_thread P && negb (p_thread_ready P)) || (needs_process P && negb (p_process_ready P)) then [] else [TNRun]
    | FDagLoop d (n :: _) _, SGo => if is_ready P (st_store st) d n then [TNNode n] else []
    | _, _ => []
    end.

  Lemma creates_act fr sg st :
    creates fr sg st = match fst (plain_act P fr sg st) with ANew nm _ => [nm] | ADo _ => [] end.
  Proof. destruct fr; destruct sg; cbn [creates plain_act fst]; unfold pools_missing; repeat (break_match; cbn [fst]); reflexivity. Qed.

  Lemma names_spawn nm h k (st : mstate) : names (fst (spawn nm h k st)) = names st ++ [nm].
  Proof. unfold names, spawn. cbn [fst st_tasks]. rewrite map_app. reflexivity. Qed.

  Lemma plain_step_names t fr sg st :
    plain_frame P fr = true -> clean_sig sg -> PS st ->
    names (fst (step_frame P t fr sg st)) = names st ++ creates fr sg st.
  Proof.
    intros Hf Hs Hst. rewrite (step_plain P t fr sg st Hf Hs Hst), creates_act. cbn [plain_step fst].
    destruct (fst (plain_act P fr sg st)) as [l|nm f]; cbn [run_act]; [rewrite app_nil_r|apply names_spawn].
    apply (run_effs_rel P same_names sn_trans sn_emit sn_with_store sn_bump sn_push_ready sn_set_waiters sn_set_tstate sn_add_event), sn_refl.
  Qed.
End Launch.

(* a plain frame that creates no task only applies primitives other than spawn *)
Section NoSpawn.
  Variable P : prog.
  Notation G := (b_graph (build (p_decls P) (p_inp P) (p_out P))).
  Hypothesis Hsw : forall n, is_switch G n = false.
  Hypothesis Hhd : forall n, is_head G n = false.

  Variable Rel : mstate -> mstate -> Prop.
  Hypothesis Rel_refl : forall st, Rel st st.
  Hypothesis Rel_trans : forall a b c, Rel a b -> Rel b c -> Rel a c.
  Hypothesis R_emit_obs : forall o st, Rel st (emit_obs o st).
  Hypothesis R_with_store : forall f st, Rel st (with_store f st).
  Hypothesis R_bump : forall c st, Rel st (bump c st).
  Hypothesis R_push_ready : forall t st, Rel st (push_ready t st).
  Hypothesis R_set_waiters : forall w st, Rel st (set_waiters w st).
  Hypothesis R_set_tstate : forall t ts st, Rel st (set_tstate t ts st).
  Hypothesis R_add_event : forall n st, Rel st (add_event n st).

  Lemma plain_step_rel t fr sg st :
    plain_frame P fr = true -> clean_sig sg -> PS st -> creates P fr sg st = [] -> Rel st (fst (step_frame P t fr sg st)).
  Proof using Hsw Hhd Rel_refl Rel_trans R_emit_obs R_with_store R_bump R_push_ready R_set_waiters R_set_tstate R_add_event.
    intros Hf Hs Hst Hc. rewrite (step_plain P t fr sg st Hf Hs Hst). rewrite creates_act in Hc. cbn [plain_step fst].
    destruct (fst (plain_act P fr sg st)) as [l|nm f]; [|discriminate Hc].
    apply (run_effs_rel P Rel); auto.
  Qed.
End NoSpawn.

Section SpawnSteps.
  Variable P : prog.
  Notation G := (b_graph (build (p_decls P) (p_inp P) (p_out P))).
  Hypothesis Hsw : forall n, is_switch G n = false.
  Hypothesis Hhd : forall n, is_head G n = false.

  Lemma step_launch t v st :
    (needs_thread P && negb (p_thread_ready P)) || (needs_process P && negb (p_process_ready P)) = false ->
    step_frame P t FChartAfterStart (SVal v) st
    = (fst (spawn TNRun true [FDagStart (maind P)] st), DCont [FRunWait; FChartAfterRun] SGo).
  Proof. intros H. cbn [step_frame]. rewrite H. reflexivity. Qed.

  Lemma step_spawn_node t n rest locals st :
    PS st -> is_ready P (st_store st) (maind P) n = true ->
    step_frame P t (FDagLoop (maind P) (n :: rest) locals) SGo st
    = (fst (spawn (TNNode n) true [FNodeStart (maind P) n false] st), DCont [FDagLoop (maind P) rest (locals ++ [st_next st])] SGo).
  Proof.
    intros Hst Hr. unfold PS in Hst. cbn [step_frame]. rewrite Hr. cbn [d_oneof maind andb].
    rewrite (plain_dep_error P _ _ _ Hst), Hsw, Hhd. reflexivity.
  Qed.
End SpawnSteps.

(* roles: task 0 runs the chart, task 1 is the launcher, task 2+i runs the i-th node of the order *)
Section Roles.
  Variable P : prog.

  Definition order : list key := p_order P (maind P).

  Definition name_of_id (i : tid) : tname :=
    match i with
    | 0 => TNMain
    | 1 => TNRun
    | S (S j) => TNNode (nth j order (KN 0))
    end.

  Definition is_dag_frame (f : frame) : bool := match f with FDagStart _ | FDagLoop _ _ _ | FDagFinal _ => true | _ => false end.
  Definition is_chart_frame (f : frame) : bool :=
    match f with FChartStart | FChartAfterStart | FChartAfterRun | FChartAfterEmitOk _ | FChartAfterEmitErr _ | FRunWait => true | _ => false end.
  Definition early_frame (f : frame) : bool := match f with FChartStart | FChartAfterStart => true | _ => false end.

  (* what the stack of task i looks like when n tasks have been created *)
  Definition role_stack (i : tid) (n : nat) (k : list frame) : Prop :=
    match i with
    | 0 => forallb (fun f => negb (is_dag_frame f)) k = true /\ (existsb early_frame k = true <-> n = 1)
    | 1 => (k = [FDagStart (maind P)] /\ n = 2)
           \/ (exists locals, k = [FDagLoop (maind P) (skipn (n - 2) order) locals] /\ 2 <= n)
           \/ (k = [FDagFinal (maind P)] /\ skipn (n - 2) order = [] /\ 2 <= n)
    | _ => forallb (fun f => negb (is_dag_frame f) && negb (is_chart_frame f)) k = true
    end.

  Definition role_ok (n : nat) (x : task frame) : Prop :=
    t_name x = name_of_id (t_id x) /\ t_id x < n /\
    match t_state x with
    | TReady k _ | TWait _ k => role_stack (t_id x) n k
    | TDone _ => True
    end.

  (* all tasks except the one being executed (whose entry is stale) play their role *)
  Definition roles_x (t : option tid) (st : mstate) : Prop :=
    forall x, In x (st_tasks st) -> Some (t_id x) <> t -> role_ok (st_next st) x.
End Roles.
