(* ALL programs, every schedule: the loop of a recurrent subgraph (C11).
   - the remaining-iterations counter of every loop in flight is at most max_iterations of its destination and every iteration
     takes one off;
   - a loop is driven only by Recurrent markers the destination node stored as its result, and the additional_data handed to the
     start node is always the payload of such a marker. *)
From MLPE Require Import Engine.Run Proofs.ExecLemmas Proofs.Evolve Proofs.Micro Proofs.PlainLive Proofs.PlainCore Proofs.StackAll Proofs.StoreAll.
Require Import Lia.

Section Pairs.
  Variable adjP : frame -> frame -> Prop.
  Fixpoint pairsP (k : list frame) : Prop :=
    match k with
    | f :: r => match r with g :: _ => adjP f g /\ pairsP r | [] => True end
    | [] => True
    end.
  Lemma pairsP_tail f r : pairsP (f :: r) -> pairsP r.
  Proof. cbn [pairsP]. destruct r as [|g r']; [auto|]. intros H. apply H. Qed.
  Lemma pairsP_head f g r : pairsP (f :: g :: r) -> adjP f g.
  Proof. cbn [pairsP]. intros H. apply H. Qed.
  Lemma pairsP_app fr rest k' :
    pairsP (fr :: rest) -> pairsP k' -> (forall g, adjP fr g -> adjP (last k' fr) g) -> pairsP (k' ++ rest).
  Proof.
    intros Hc Hk Hl. destruct k' as [|f k'']; [exact (pairsP_tail _ _ Hc)|].
    revert f Hk Hl. induction k'' as [|g r' IH]; intros f Hk Hl.
    - cbn [app last] in *. destruct rest as [|g0 r0]; [exact I|]. cbn [pairsP]. split; [exact (Hl g0 (pairsP_head _ _ _ Hc))|].
      exact (pairsP_tail _ _ Hc).
    - change ((f :: g :: r') ++ rest) with (f :: (g :: r') ++ rest). cbn [pairsP app]. cbn [pairsP] in Hk.
      destruct Hk as [Ha Hk]. split; [exact Ha|]. apply IH; [exact Hk|exact Hl].
  Qed.
End Pairs.

(* what sits directly on the frame that receives the result of one iteration: the _run_dag of that very subgraph *)
Definition adjR (f g : frame) : Prop :=
  match g with
  | FRecAfterIter _ _ _ rsub _ => match f with FDagStart d | FDagLoop d _ _ | FDagFinal d => d = rsub | _ => False end
  | _ => True
  end.

Section RecAll.
  Variable P : prog.
  Notation G := (b_graph (build (p_decls P) (p_inp P) (p_out P))).

  Definition maxit (n : key) : nat := match na_maxit (nattr_of G n) with Some m => m | None => 0 end.
  Definition marker_of (tr : list obs) (n : key) (res : value) : Prop := is_rec res = true /\ In (OSetResult n res) tr.
  Definition was_stored (tr : list obs) (k : key) (v : value) : Prop := In (OSetResult k v) tr \/ v = VNone.

  Definition recf (tr : list obs) (f : frame) : Prop :=
    match f with
    | FRecStart _ n res => marker_of tr n res
    | FRecLoop _ n s rsub r res =>
      marker_of tr n res /\ na_start (nattr_of G n) = Some s /\ d_dst rsub = n /\ r <= maxit n
    | FRecAfterIter _ n s rsub r => na_start (nattr_of G n) = Some s /\ d_dst rsub = n /\ S r <= maxit n
    | _ => True
    end.
  Definition topR (tr : list obs) (f : frame) (sg : option signal) : Prop :=
    match f with
    | FRecAfterIter _ n _ _ _ => forall res, sg = Some (SVal res) -> was_stored tr n res
    | _ => True
    end.
  Definition topCR (tr : list obs) (k : list frame) (sg : option signal) : Prop := match k with f :: _ => topR tr f sg | [] => True end.
  Definition belowR (tr : list obs) (g : frame) (v : value) : Prop :=
    match g with FRecAfterIter _ n _ rsub _ => d_dst rsub = n -> was_stored tr n v | _ => True end.
  Definition top_afterR (tr : list obs) (fr : frame) (d : directive) : Prop :=
    match d with
    | DSuspend _ k' => topCR tr k' None
    | DYield k' => topCR tr k' (Some SGo)
    | DCont k' s' => topCR tr k' (Some s')
    | DRet s' => forall v, s' = SVal v -> forall g, adjR fr g -> belowR tr g v
    end.

  Lemma marker_mono new tr n res : marker_of tr n res -> marker_of (new ++ tr) n res.
  Proof. intros [A B]. split; [exact A|apply in_or_app; right; exact B]. Qed.
  Lemma was_stored_mono new tr k v : was_stored tr k v -> was_stored (new ++ tr) k v.
  Proof. intros [H|H]; [left; apply in_or_app; right; exact H|right; exact H]. Qed.
  Lemma recf_mono new tr f : recf tr f -> recf (new ++ tr) f.
  Proof.
    destruct f; cbn [recf]; try (intros; exact I).
    - apply marker_mono.
    - intros (A & B). split; [apply marker_mono; exact A|exact B].
    - auto.
  Qed.
  Lemma topR_mono new tr f sg : topR tr f sg -> topR (new ++ tr) f sg.
  Proof. destruct f; cbn [topR]; try (intros; exact I). intros H res Hs. apply was_stored_mono. exact (H res Hs). Qed.
  Lemma topCR_mono new tr k sg : topCR tr k sg -> topCR (new ++ tr) k sg.
  Proof. destruct k; [auto|apply topR_mono]. Qed.
  Lemma topCR_nonval tr k s s' : (forall v, s' <> Some (SVal v)) -> topCR tr k s -> topCR tr k s'.
  Proof. intros Hn. destruct k as [|f r]; [auto|]. cbn [topCR]. destruct f; cbn [topR]; auto. intros _ v9 Hv. exfalso. exact (Hn v9 Hv). Qed.

  Lemma result_was_stored st k : Istore st -> was_stored (st_trace st) k (get_result k true (st_store st)).
  Proof.
    intros HI. unfold get_result, get_result_opt. cbn [negb andb].
    destruct (alookup key_eqb k (s_results (st_store st))) as [v|] eqn:El; [left; apply HI; exact El|right; reflexivity].
  Qed.

  Lemma step_pairsR t fr sg st :
    pairsP adjR (dir_frames (snd (step_frame P t fr sg st))) /\
    (forall g, adjR fr g -> adjR (last (dir_frames (snd (step_frame P t fr sg st))) fr) g) /\
    dir_ne (snd (step_frame P t fr sg st)) = true.
  Proof.
    split; [|split; [|apply step_dir_ne]]; destruct (step_pushes P t fr sg st) as [[s' ->]|Hp]; cbn [dir_frames pairsP last]; auto;
      destruct Hp; cbn [pairsP adjR last]; auto; intros g Hg; destruct g; cbn [adjR] in *; auto.
  Qed.

  Lemma step_topR t fr sg st :
    Istore st -> topR (st_trace st) fr (Some sg) ->
    top_afterR (st_trace (fst (step_frame P t fr sg st))) fr (snd (step_frame P t fr sg st)).
  Proof.
    intros HI.
    destruct (ev_trace _ _ (ev_step_frame P t fr sg st)) as [new Etr]. rewrite Etr. clear Etr.
    step_cases; cbn [fst snd]; unfold emit_frames; cbn [top_afterR topCR topR]; intros Htop;
      try exact I; try (intros ? Hv; discriminate Hv).
    all: try (intros v' Hv' g Hg; destruct g; cbn [adjR belowR] in *; try exact I; try contradiction).
    all: try (inversion Hv' as [Ev]; intros Hd; apply was_stored_mono;
              first [right; reflexivity | subst; apply result_was_stored; exact HI]).
  Qed.

  Definition rk_ok (tr : list obs) (k : list frame) (sg : option signal) : Prop :=
    (pairsP adjR k /\ forall f, In f k -> recf tr f) /\ topCR tr k sg.
  Definition rec_TP (tr : list obs) (x : task frame) : Prop :=
    match t_state x with
    | TReady k sg => rk_ok tr k (Some sg)
    | TWait _ k => rk_ok tr k None
    | TDone _ => True
    end.
  Lemma rk_mono new tr k s : rk_ok tr k s -> rk_ok (new ++ tr) k s.
  Proof. intros ((A & B) & C). split; [split; [exact A|intros f Hf; apply recf_mono; exact (B f Hf)]|apply topCR_mono; exact C]. Qed.
  Lemma rk_nonval tr k s s' : (forall v, s' <> Some (SVal v)) -> rk_ok tr k s -> rk_ok tr k s'.
  Proof. intros Hn (A & B). split; [exact A|exact (topCR_nonval tr k s s' Hn B)]. Qed.
  Lemma step_recf t fr sg st f :
    recf (st_trace st) fr -> topR (st_trace st) fr (Some sg) -> In f (dir_frames (snd (step_frame P t fr sg st))) ->
    recf (st_trace (fst (step_frame P t fr sg st))) f.
  Proof.
    intros Hfr Htop Hin. destruct (ev_trace _ _ (ev_step_frame P t fr sg st)) as [new ->]. apply recf_mono.
    destruct (step_pushed P t fr sg st f Hin) as [k' [Hp Hf]].
    destruct Hp; cbn [In] in Hf; repeat (destruct Hf as [<-|Hf]); try contradiction; try exact I; cbn [recf topR] in *.
    -
      split; [exact Hfr|]. split; [assumption|]. split; [reflexivity|]. unfold maxit. lia.
    -
      destruct Hfr as (A & B & C & D). split; [exact B|]. split; [exact C|exact D].
    -
      destruct Hfr as (B & C & D). split; [|split; [exact B|split; [exact C|lia]]].
      split; [apply negb_false_iff; assumption|]. destruct (Htop res eq_refl) as [Hs|Hs]; [exact Hs|subst res; discriminate].
  Qed.

  Definition AdI (st : mstate) : Prop :=
    forall s v, alookup key_eqb s (st_adddata st) = Some v ->
      exists n res, na_start (nattr_of G n) = Some s /\ marker_of (st_trace st) n res /\ v = rec_data res.
  Lemma creach_rec_stacks : forall st c, creach P st c ->
    tasks_ok (rec_TP (st_trace st)) st /\ (match c with Some (_, k, sg) => rk_ok (st_trace st) k (Some sg) | None => True end).
  Proof.
    intros st c Hc. destruct (creach_sig_inv P rk_ok (fun _ => True)) with (st := st) (c := c) as (A & B & _); auto.
    - apply rk_mono.
    - apply rk_nonval.
    - intros tr s. split; [split; [exact I|intros f []]|exact I].
    - split; [split; [exact I|intros f [<-|[]]; exact I]|exact I].
    - intros st0 t fr rest sg Hc0 ((Bp & Bf) & Bt) _. cbn [topCR] in Bt.
      pose proof (creach_store P _ _ Hc0) as HI. pose proof (Bf fr (or_introl eq_refl)) as Bfr.
      destruct (step_pairsR t fr sg st0) as (Hp1 & Hp2 & Hp3).
      pose proof (step_topR t fr sg st0 HI Bt) as Htop.
      destruct (ev_trace _ _ (ev_step_frame P t fr sg st0)) as [new Etr].
      assert (Hpk : pairsP adjR (dir_frames (snd (step_frame P t fr sg st0)) ++ rest)) by (apply (pairsP_app adjR fr); assumption).
      assert (Hrf : forall f, In f (dir_frames (snd (step_frame P t fr sg st0)) ++ rest) -> recf (st_trace (fst (step_frame P t fr sg st0))) f).
      { intros f Hin. apply in_app_or in Hin. destruct Hin as [Hin|Hin]; [exact (step_recf t fr sg st0 f Bfr Bt Hin)|].
        rewrite Etr. apply recf_mono. apply Bf. right. exact Hin. }
      split; [|split; [|exact I]].
      + (* the task _run_node creates for the loop starts from the marker the same step stores *)
        intros f Hs. split; [split; [exact I|intros g [<-|[]]]|destruct f; exact I || contradiction].
        destruct f; cbn [spawns] in Hs; try contradiction; try exact I. destruct Hs as (-> & -> & Hr).
        cbn [step_frame recf]. rewrite Hr. split; [exact Hr|left; reflexivity].
      + destruct (snd (step_frame P t fr sg st0)) as [w k'|k'|k' sg'|sg']; cbn [dir_frames dir_ne top_afterR app] in *.
        1-3: destruct k' as [|f1 k'']; [discriminate Hp3|]; split; [split; [exact Hpk|exact Hrf]|exact Htop].
        split; [split; [exact (pairsP_tail adjR _ _ Bp)|exact Hrf]|].
        destruct rest as [|g r]; [exact I|]. cbn [topCR]. pose proof (pairsP_head adjR _ _ _ Bp) as Hadj.
        destruct g; cbn [topR]; try exact I. intros res Hs. inversion Hs; subst sg'.
        pose proof (Htop res eq_refl _ Hadj) as Hb. cbn [belowR] in Hb. apply Hb.
        pose proof (Bf _ (or_intror (or_introl eq_refl))) as Hg. cbn [recf] in Hg. apply Hg.
  Qed.

  Theorem creach_rec : forall st c, creach P st c ->
    tasks_ok (rec_TP (st_trace st)) st /\
    (match c with Some (_, k, sg) => rk_ok (st_trace st) k (Some sg) | None => True end) /\
    AdI st.
  Proof.
    intros st c Hc. split; [exact (proj1 (creach_rec_stacks st c Hc))|]. split; [exact (proj2 (creach_rec_stacks st c Hc))|]. revert st c Hc.
    apply (creach_state_inv P AdI).
    - intros s v Hl. discriminate Hl.
    - intros a b (_ & _ & Et & _ & _ & Ea) Ha s v. rewrite Ea, Et. apply Ha.
    - intros st t fr rest sg Hc HA s v Hl. destruct (step_changes P t fr sg st) as ([new Etr] & _ & _ & D). rewrite Etr.
      destruct (creach_rec_stacks _ _ Hc) as (_ & (_ & Bf) & _). specialize (Bf fr (or_introl eq_refl)).
      destruct (D s v Hl) as [E|(d & n & rsub & r & res & -> & ->)].
      + destruct (HA s v E) as [n [res (X & Y & Z)]]. exists n, res. split; [exact X|]. split; [apply marker_mono; exact Y|exact Z].
      + (* an iteration starts: the loop's frame holds the marker that asked for it *)
        cbn [recf] in Bf. destruct Bf as (Y & X & _). exists n, res. split; [exact X|]. split; [apply marker_mono; exact Y|reflexivity].
  Qed.
End RecAll.

(* [maxit P n] = max_iterations of the recurrent subgraph whose destination is n *)
Theorem recurrent_loops_are_bounded_all_programs P :
  forall st x f, reachable P st -> In x (st_tasks st) -> In f (estack (t_state x)) ->
    match f with
    | FRecLoop _ n _ _ r _ => r <= maxit P n
    | FRecAfterIter _ n _ _ r => S r <= maxit P n
    | _ => True
    end.
Proof.
  intros st x f Hr Hx Hf. destruct (creach_rec P st None (reachable_creach P st Hr)) as (A & _ & _).
  unfold tasks_ok in A. rewrite Forall_forall in A. specialize (A x Hx). unfold rec_TP in A.
  assert (Hrf : recf P (st_trace st) f).
  { destruct (t_state x) as [k sg|w k|r]; cbn [estack] in Hf; [| |contradiction]; destruct A as ((_ & B) & _); exact (B f Hf). }
  destruct f; try exact I; cbn [recf] in Hrf; apply Hrf.
Qed.

Theorem recurrent_loops_are_driven_by_stored_markers_all_programs P :
  forall st x f, reachable P st -> In x (st_tasks st) -> In f (estack (t_state x)) ->
    match f with
    | FRecStart _ n res | FRecLoop _ n _ _ _ res => is_rec res = true /\ In (OSetResult n res) (st_trace st)
    | _ => True
    end.
Proof.
  intros st x f Hr Hx Hf. destruct (creach_rec P st None (reachable_creach P st Hr)) as (A & _ & _).
  unfold tasks_ok in A. rewrite Forall_forall in A. specialize (A x Hx). unfold rec_TP in A.
  assert (Hrf : recf P (st_trace st) f).
  { destruct (t_state x) as [k sg|w k|r]; cbn [estack] in Hf; [| |contradiction]; destruct A as ((_ & B) & _); exact (B f Hf). }
  destruct f; try exact I; cbn [recf] in Hrf; apply Hrf.
Qed.

Theorem additional_data_is_the_payload_of_a_stored_marker_all_programs P :
  forall st, reachable P st ->
    forall s v, alookup key_eqb s (st_adddata st) = Some v ->
      exists n res, na_start (nattr_of (b_graph (build (p_decls P) (p_inp P) (p_out P))) n) = Some s /\
                    is_rec res = true /\ In (OSetResult n res) (st_trace st) /\ v = rec_data res.
Proof.
  intros st Hr s v Hl. destruct (creach_rec P st None (reachable_creach P st Hr)) as (_ & _ & Hd).
  destruct (Hd s v Hl) as [n [res (A & (B & C) & D)]]. exists n, res. auto.
Qed.
