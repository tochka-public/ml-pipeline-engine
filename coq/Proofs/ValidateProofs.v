(* C16: validation accepts a build iff no node the traversal examines, no destination and no start node of a recurrent subgraph
   is defective; a single defect, wherever it sits, yields exactly its error. *)
From MLPE Require Import Pure.Validate.

Lemma first_some_none {A B} (f : A -> option B) l : first_some f l = None <-> forall x, In x l -> f x = None.
Proof.
  induction l as [|a l IH]; simpl; [split; [intros _ x []|reflexivity]|].
  destruct (f a) eqn:E.
  - split; [discriminate|]. intros H. rewrite (H a (or_introl eq_refl)) in E. discriminate.
  - rewrite IH. split; [intros H x [->|Hx]; auto|intros H x Hx; apply H; right; exact Hx].
Qed.

Lemma first_some_some {A B} (f : A -> option B) l e : first_some f l = Some e -> exists x, In x l /\ f x = Some e.
Proof.
  induction l as [|a l IH]; simpl; [discriminate|].
  destruct (f a) eqn:E.
  - intros H. inversion H; subst. exists a. split; [left; reflexivity|exact E].
  - intros H. destruct (IH H) as [x [Hx Hf]]. exists x. split; [right; exact Hx|exact Hf].
Qed.

Lemma first_some_unique {A B} (f : A -> option B) l e :
  (forall x, In x l -> f x = None \/ f x = Some e) -> (exists x, In x l /\ f x = Some e) -> first_some f l = Some e.
Proof.
  induction l as [|a l IH]; simpl; intros Hall [x [Hx Hf]]; [destruct Hx|].
  destruct (Hall a (or_introl eq_refl)) as [Ha|Ha]; rewrite Ha; [|reflexivity].
  apply IH; [intros y Hy; apply Hall; right; exact Hy|].
  destruct Hx as [->|Hx]; [congruence|]. exists x. split; assumption.
Qed.

Section V.
  Variable ds : decls.
  Variable flags : nat -> defects.
  Variable inp out : nat.
  Let B := build ds inp out.

  Definition examined (i : nat) : Prop := In i (b_pop B).
  Definition rec_dest (d : nat) : Prop := exists s, In (s, KN d) (b_recs B).
  Definition rec_start (s : nat) : Prop := exists d, In (KN s, d) (b_recs B).

  Definition clean : Prop :=
    (forall i, examined i -> node_error (flags i) = None)
    /\ (forall d, rec_dest d -> df_no_rec_protocol (flags d) = false)
    /\ (forall s, rec_start s -> df_no_additional_data (flags s) = false).

  Lemma dest_fun_none :
    first_some (fun sd : key * key => match real_of (snd sd) with
                                      | Some d => if df_no_rec_protocol (flags d) then Some EIncorrectRecurrentMixin else None
                                      | None => None
                                      end) (b_recs B) = None
    <-> forall d, rec_dest d -> df_no_rec_protocol (flags d) = false.
  Proof.
    rewrite first_some_none. split.
    - intros H d [s Hs]. specialize (H (s, KN d) Hs). simpl in H. destruct (df_no_rec_protocol (flags d)); [discriminate|reflexivity].
    - intros H [s k] Hx. simpl. destruct k as [d| |]; simpl; try reflexivity. rewrite (H d); [reflexivity|]. exists s. exact Hx.
  Qed.

  Lemma start_fun_none :
    first_some (fun sd : key * key => match real_of (fst sd) with
                                      | Some s => if df_no_additional_data (flags s) then Some EIncorrectParamsRecurrentNode else None
                                      | None => None
                                      end) (b_recs B) = None
    <-> forall s, rec_start s -> df_no_additional_data (flags s) = false.
  Proof.
    rewrite first_some_none. split.
    - intros H s [d Hd]. specialize (H (KN s, d) Hd). simpl in H. destruct (df_no_additional_data (flags s)); [discriminate|reflexivity].
    - intros H [k d] Hx. simpl. destruct k as [s| |]; simpl; try reflexivity. rewrite (H s); [reflexivity|]. exists d. exact Hx.
  Qed.

  (* sound and complete: the build is accepted iff nothing examined is defective *)
  Theorem validate_accepts_iff_clean : validate ds flags inp out = None <-> clean.
  Proof.
    unfold validate, clean. fold B. split.
    - intros H.
      destruct (first_some (fun i => node_error (flags i)) (b_pop B)) eqn:E1; [discriminate|].
      destruct (first_some _ (b_recs B)) eqn:E2 in H; [discriminate|].
      repeat split.
      + apply first_some_none. exact E1.
      + apply dest_fun_none. exact E2.
      + apply start_fun_none. exact H.
    - intros [H1 [H2 H3]].
      rewrite (proj2 (first_some_none _ _) H1).
      rewrite (proj2 dest_fun_none H2). apply start_fun_none. exact H3.
  Qed.

  (* specific: a single defective class, wherever the traversal meets it, yields exactly its error *)
  Theorem validate_specific_node n e :
    examined n -> node_error (flags n) = Some e ->
    (forall i, examined i -> i <> n -> node_error (flags i) = None) ->
    validate ds flags inp out = Some e.
  Proof.
    intros Hn He Hothers. unfold validate. fold B.
    rewrite (first_some_unique (fun i => node_error (flags i)) (b_pop B) e); [reflexivity| |].
    - intros x Hx. destruct (Nat.eq_dec x n) as [->|Hne]; [right; exact He|left; apply Hothers; assumption].
    - exists n. split; assumption.
  Qed.

  Theorem validate_specific_rec_dest d :
    (forall i, examined i -> node_error (flags i) = None) ->
    rec_dest d -> df_no_rec_protocol (flags d) = true ->
    validate ds flags inp out = Some EIncorrectRecurrentMixin.
  Proof.
    intros H1 [s Hs] Hd. unfold validate. fold B. rewrite (proj2 (first_some_none _ _) H1).
    rewrite (first_some_unique _ (b_recs B) EIncorrectRecurrentMixin); [reflexivity| |].
    - intros [s' k] _. simpl. destruct k as [d'| |]; simpl; auto. destruct (df_no_rec_protocol (flags d')); auto.
    - exists (s, KN d). split; [exact Hs|]. simpl. rewrite Hd. reflexivity.
  Qed.

  Theorem validate_specific_rec_start s :
    (forall i, examined i -> node_error (flags i) = None) ->
    (forall d, rec_dest d -> df_no_rec_protocol (flags d) = false) ->
    rec_start s -> df_no_additional_data (flags s) = true ->
    validate ds flags inp out = Some EIncorrectParamsRecurrentNode.
  Proof.
    intros H1 H2 [d Hd] Hs. unfold validate. fold B. rewrite (proj2 (first_some_none _ _) H1).
    rewrite (proj2 dest_fun_none H2).
    apply first_some_unique.
    - intros [k d'] _. simpl. destruct k as [s'| |]; simpl; auto. destruct (df_no_additional_data (flags s')); auto.
    - exists (KN s, d). split; [exact Hd|]. simpl. rewrite Hs. reflexivity.
  Qed.
End V.
