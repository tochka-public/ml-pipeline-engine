(* C04, all programs and schedules: the "processed" mark of a node is exactly "an execution of it has begun since its last
   invalidation", and an execution begins only when the mark is absent -- so between two executions of one node there is always an
   invalidation (a recurrent re-iteration hiding it, or the forced default after exhaustion): at most one execution per run and
   iteration, whoever requests it and however the requests interleave. *)
From MLPE Require Import Engine.Run Proofs.ExecLemmas.

Fixpoint last_proc (n : key) (tr : list obs) : bool :=
  match tr with
  | [] => false
  | OProcessed n' :: r => if key_eqb n n' then true else last_proc n r
  | OHide n' :: r => if key_eqb n n' then false else last_proc n r
  | _ :: r => last_proc n r
  end.

(* every "execution begins" event finds the node unmarked *)
Fixpoint wf_proc (tr : list obs) : Prop :=
  match tr with
  | [] => True
  | OProcessed n :: r => last_proc n r = false /\ wf_proc r
  | _ :: r => wf_proc r
  end.

Definition proc_ok (st : mstate) : Prop :=
  (forall n, exists_processed n (st_store st) = last_proc n (st_trace st)) /\ wf_proc (st_trace st).

Definition same_st (st st' : mstate) : Prop := st_store st' = st_store st /\ st_trace st' = st_trace st.
Lemma same_trans a b c : same_st a b -> same_st b c -> same_st a c.
Proof. intros [A1 A2] [B1 B2]. split; congruence. Qed.
Lemma same_inert st st' :
  st_store st' = st_store st -> st_adddata st' = st_adddata st -> st_trace st' = st_trace st -> st_next st' = st_next st -> same_st st st'.
Proof. intros S _ T _. split; assumption. Qed.
Lemma s_set_waiters w st : same_st st (set_waiters w st). Proof. apply (I_set_waiters _ same_inert). Qed.
Lemma s_set_tstate t ts st : same_st st (set_tstate t ts st). Proof. apply (I_set_tstate _ same_inert). Qed.
Definition s_suspend := R_suspend same_st same_trans s_set_waiters s_set_tstate.
Definition same_refl := I_refl same_st same_inert.
Definition s_wake_all := I_wake_all same_st same_trans same_inert.
Definition s_cancel_task := I_cancel_task same_st same_trans same_inert.
Definition s_cancel_tasks := I_cancel_tasks same_st same_trans same_inert.
Definition s_finally_b P := I_finally_b P same_st same_trans same_inert.

Definition keeps (st st' : mstate) : Prop := proc_ok st -> proc_ok st'.

Lemma keeps_trans a b c : keeps a b -> keeps b c -> keeps a c.
Proof. unfold keeps. auto. Qed.
Lemma keeps_same st st' :
  st_store st' = st_store st -> st_adddata st' = st_adddata st -> st_trace st' = st_trace st -> st_next st' = st_next st -> keeps st st'.
Proof. intros S _ T _ H. unfold proc_ok. rewrite S, T. exact H. Qed.

Lemma p_set_adddata k v st : keeps st (set_adddata k v st). Proof. intros H. exact H. Qed.
Lemma p_spawn nm h k st : keeps st (fst (spawn nm h k st)).
Proof. intros [A B]. split; cbn; assumption. Qed.

Definition neutral (o : obs) : bool := match o with OProcessed _ | OHide _ => false | _ => true end.
Lemma p_emit o st : neutral o = true -> keeps st (emit_obs o st).
Proof. intros Hn [A B]. split; cbn; destruct o; try discriminate Hn; assumption. Qed.

Definition keeps_processed (f : storage -> storage) : Prop := forall s n, exists_processed n (f s) = exists_processed n s.
Lemma kp_set_result k v : keeps_processed (set_result k v). Proof. intros s n. reflexivity. Qed.
Lemma kp_set_switch k l c : keeps_processed (set_switch k l c). Proof. intros s n. reflexivity. Qed.
Lemma kp_set_active p b : keeps_processed (set_active p b). Proof. intros s n. reflexivity. Qed.
Lemma p_with_store f st : keeps_processed f -> keeps st (with_store f st).
Proof. intros Hf [A B]. split; [|exact B]. intros n. cbn. rewrite Hf. apply A. Qed.

Lemma mem_remove_all_eq (n k : key) l : mem key_eqb n (remove_all key_eqb k l) = negb (key_eqb n k) && mem key_eqb n l.
Proof.
  induction l as [|x r IH]; cbn; [rewrite andb_false_r; reflexivity|].
  destruct (key_eqb k x) eqn:E.
  - apply key_eqb_spec in E. subst x. rewrite IH. destruct (key_eqb n k); reflexivity.
  - cbn. rewrite IH. destruct (key_eqb n x) eqn:E2; [|reflexivity].
    apply key_eqb_spec in E2. subst x. destruct (key_eqb n k) eqn:E3; [|reflexivity].
    apply key_eqb_spec in E3. subst. rewrite key_eqb_refl in E. discriminate.
Qed.

Lemma processed_set n k s : exists_processed n (set_processed k s) = key_eqb n k || exists_processed n s.
Proof.
  unfold exists_processed, set_processed. cbn. rewrite mem_remove_all_eq, mem_add_set_eq.
  destruct (key_eqb n k); cbn; [reflexivity|]. reflexivity.
Qed.

Lemma processed_hide1 n k s : exists_processed n (hide1 k s) = negb (key_eqb n k) && exists_processed n s.
Proof.
  unfold exists_processed, hide1. cbn. rewrite mem_add_set_eq. destruct (key_eqb n k); cbn; reflexivity.
Qed.

Lemma p_processed n st :
  exists_processed n (st_store st) = false -> keeps st (emit_obs (OProcessed n) (with_store (set_processed n) st)).
Proof.
  intros Hn [A B]. split.
  - intros m. cbn. rewrite processed_set. destruct (key_eqb m n); [reflexivity|]. apply A.
  - cbn. split; [rewrite <- A; exact Hn|exact B].
Qed.

Lemma p_hide1 n st : keeps st (emit_obs (OHide n) (with_store (hide1 n) st)).
Proof.
  intros [A B]. split; [|exact B]. intros m. cbn. rewrite processed_hide1. destruct (key_eqb m n); cbn; [reflexivity|]. apply A.
Qed.

Lemma p_hide_all l st : keeps st (fold_left (fun s k => emit_obs (OHide k) s) l (with_store (hide_all l) st)).
Proof.
  (* hiding the first node and recording it, then the rest: the same state as hiding all, then recording all *)
  revert st. induction l as [|k r IH]; intros st H; [exact H|]. exact (IH _ (p_hide1 k st H)).
Qed.

Section Processed.
  Variable P : prog.

  (* [keeps] is opaque here so that no [apply] of the search tries to read a primitive's lemma as an implication *)
  Local Opaque keeps.
  Lemma step_frame_proc t fr sg st : keeps st (fst (step_frame P t fr sg st)).
  Proof.
    destruct fr; destruct sg; cbn [step_frame]; unfold default_or_raise, reduced;
      repeat break_match; spawn_norm; cbn [fst];
      inert_prims keeps_trans keeps_same
                  ltac:(first [ apply p_hide_all | apply p_hide1 | (apply p_processed; assumption) | (apply p_emit; reflexivity) | apply p_spawn
                              | apply p_set_adddata
                              | (apply p_with_store; first [apply kp_set_result | apply kp_set_switch | apply kp_set_active]) ]).
  Qed.
  Local Transparent keeps.

  Lemma exec_proc fuel t k sg st : keeps st (exec P fuel t k sg st).
  Proof.
    intros H0. apply (exec_rule P t (fun _ _ s => proc_ok s) proc_ok); [| |exact H0].
    - intros sg' s. apply (I_set_tstate _ keeps_same).
    - intros fr rest sg' s H. split; [exact (I_abort P _ keeps_same s H)|].
      pose proof (step_frame_proc t fr sg' s H) as H1.
      destruct (step_frame P t fr sg' s) as [st1 [w k'|k'|k' sg''|sg'']]; cbn [fst] in *; exact H1.
  Qed.

  Theorem reachable_proc_ok : forall st, reachable P st -> proc_ok st.
  Proof.
    apply (reachable_inv P proc_ok).
    - split; [intros n; reflexivity|cbn; exact I].
    - intros st _ H. apply (loop_step_rule P proc_ok); [auto| |].
      + intros. exact (I_dequeue _ keeps_same st H).
      + intros. apply exec_proc, (I_dequeue _ keeps_same st H).
    - intros st g _. apply (I_wake_all _ keeps_trans keeps_same), (I_refl _ keeps_same).
    - intros st _. apply (I_cancel_task _ keeps_trans keeps_same), (I_refl _ keeps_same).
  Qed.
End Processed.

Lemma last_proc_false_hide n l2 l3 : last_proc n (l2 ++ OProcessed n :: l3) = false -> In (OHide n) l2.
Proof.
  induction l2 as [|o r IH]; cbn [app last_proc].
  - rewrite key_eqb_refl. discriminate.
  - destruct o; try (intros H; right; apply IH; exact H).
    + destruct (key_eqb n n0) eqn:E; [intros _; left; apply key_eqb_spec in E; subst; reflexivity|intros H; right; apply IH; exact H].
    + destruct (key_eqb n n0) eqn:E; [discriminate|intros H; right; apply IH; exact H].
Qed.

Lemma wf_proc_suffix l1 l2 : wf_proc (l1 ++ l2) -> wf_proc l2.
Proof. induction l1 as [|o r IH]; cbn [app]; [auto|]. destruct o; cbn; try exact IH. intros [_ H]. apply IH. exact H. Qed.

(* the trace is newest first: of two beginnings of executions of one node, the older is separated from the newer by an invalidation *)
Lemma two_executions_are_separated n l1 l2 l3 :
  wf_proc (l1 ++ OProcessed n :: l2 ++ OProcessed n :: l3) -> In (OHide n) l2.
Proof. intros H. apply wf_proc_suffix in H. cbn in H. destruct H as [H _]. apply (last_proc_false_hide n l2 l3). exact H. Qed.
