(* The core of a state -- storage, additional data, events, history, task names, the next task id: what waking, cancelling and notifying leave alone
   (`same_core`, one fact per primitive). For plain programs: what one frame step does to the core, as equations (step
   summaries), which frame records which history entry (`records`), the "effective state" of a task inside an iteration, and
   that a notification reaches everybody who waits for it (`finally_b_wakes`). *)
From MLPE Require Import Engine.Run Proofs.ExecLemmas Proofs.WaitInv Proofs.PlainWorld Proofs.PlainStep Proofs.PlainLaunch Proofs.Micro.

Definition same_core (a b : mstate) : Prop :=
  st_store b = st_store a /\ st_events b = st_events a /\ st_trace b = st_trace a /\ names b = names a /\ st_next b = st_next a
  /\ st_adddata b = st_adddata a.
Lemma sc_refl a : same_core a a. Proof. repeat split. Qed.
Lemma sc_trans a b c : same_core a b -> same_core b c -> same_core a c.
Proof. intros (A1 & A2 & A3 & A4 & A5 & A6) (B1 & B2 & B3 & B4 & B5 & B6). repeat split; congruence. Qed.
Lemma sc_push_ready t st : same_core st (push_ready t st). Proof. repeat split. Qed.
Lemma sc_set_waiters w st : same_core st (set_waiters w st). Proof. repeat split. Qed.
Lemma sc_set_tstate t ts st : same_core st (set_tstate t ts st).
Proof. repeat split. exact (sn_set_tstate t ts st). Qed.

Definition sc_notify := R_notify same_core sc_trans sc_push_ready sc_set_waiters sc_set_tstate.
Definition sc_wake_all := R_wake_all same_core sc_trans sc_push_ready sc_set_waiters sc_set_tstate.
Definition sc_notify_keys := R_notify_keys same_core sc_trans sc_push_ready sc_set_waiters sc_set_tstate.
Definition sc_cancel_task := R_cancel_task same_core sc_trans sc_push_ready sc_set_waiters sc_set_tstate.
Definition sc_cancel_tasks := R_cancel_tasks same_core sc_trans sc_push_ready sc_set_waiters sc_set_tstate.

Lemma sc_set_event n st : same_core (add_event n st) (set_event n st).
Proof. change (set_event n st) with (wake_all (WEvent n) SGo (add_event n st)). apply sc_wake_all, sc_refl. Qed.

Lemma sc_finally_b P d n st : same_core (add_event n st) (finally_b P d n st).
Proof.
  unfold finally_b. destruct (key_eqb n (d_dst d)).
  - apply sc_notify, sc_notify, sc_notify_keys, sc_set_event.
  - apply sc_notify, sc_notify_keys, sc_set_event.
Qed.

Lemma sc_suspend t w k st : same_core st (suspend t w k st).
Proof. unfold suspend. eapply sc_trans; [apply sc_set_tstate|apply sc_set_waiters]. Qed.

Lemma sc_store a b : same_core a b -> st_store b = st_store a. Proof. intros H. apply H. Qed.
Lemma sc_events a b : same_core a b -> st_events b = st_events a. Proof. intros H. apply H. Qed.
Lemma sc_trace a b : same_core a b -> st_trace b = st_trace a. Proof. intros H. apply H. Qed.
Lemma sc_names a b : same_core a b -> names b = names a. Proof. intros H. apply H. Qed.
Lemma sc_next a b : same_core a b -> st_next b = st_next a. Proof. intros H. apply H. Qed.
Lemma sc_adddata a b : same_core a b -> st_adddata b = st_adddata a. Proof. intros H. apply H. Qed.

Lemma core_notify c st : same_core st (notify c st). Proof. apply sc_notify, sc_refl. Qed.
Lemma core_notify_keys ks st : same_core st (notify_keys ks st). Proof. apply sc_notify_keys, sc_refl. Qed.
Lemma core_cancel_tasks ts st : same_core st (cancel_tasks ts st). Proof. apply sc_cancel_tasks, sc_refl. Qed.
Lemma core_cancel_task t st : same_core st (cancel_task t st). Proof. apply sc_cancel_task, sc_refl. Qed.
Lemma core_wake_all w sg st : same_core st (wake_all w sg st). Proof. apply sc_wake_all, sc_refl. Qed.

(* manager.run leaves a mark in the trace when it returns *)
Definition is_rundone (o : obs) : bool := match o with ORunDone _ => true | _ => false end.
Definition over (st : mstate) : bool := existsb is_rundone (st_trace st).

(* the effective state of a task inside an iteration: the table entry of the running task is stale until [exec] writes it
   back, its real state is the configuration *)
Definition estate (c : running) (x : task frame) : tstate frame :=
  match c with
  | Some (t, k, sg) => if Nat.eqb (t_id x) t then match k with [] => TDone sg | _ => TReady k sg end else t_state x
  | None => t_state x
  end.

Definition estack (ts : tstate frame) : list frame :=
  match ts with TReady k _ | TWait _ k => k | TDone _ => [] end.

Definition node_names (st : mstate) : list key :=
  flat_map (fun nm => match nm with TNNode m => [m] | _ => [] end) (names st).
Definition is_run_name (nm : tname) : bool := match nm with TNRun => true | _ => false end.

Lemma node_names_app st l : names st = l -> node_names st = flat_map (fun nm => match nm with TNNode m => [m] | _ => [] end) l.
Proof. unfold node_names. intros ->. reflexivity. Qed.
Lemma store_notify c (st : mstate) : st_store (notify c st) = st_store st.
Proof. exact (sc_store _ _ (core_notify c st)). Qed.
Lemma store_notify_keys ks (st : mstate) : st_store (notify_keys ks st) = st_store st.
Proof. exact (sc_store _ _ (core_notify_keys ks st)). Qed.
Lemma store_cancel_tasks ts (st : mstate) : st_store (cancel_tasks ts st) = st_store st.
Proof. exact (sc_store _ _ (core_cancel_tasks ts st)). Qed.
Lemma store_cancel_task t (st : mstate) : st_store (cancel_task t st) = st_store st.
Proof. exact (sc_store _ _ (core_cancel_task t st)). Qed.
Lemma store_wake_all w sg (st : mstate) : st_store (wake_all w sg st) = st_store st.
Proof. exact (sc_store _ _ (core_wake_all w sg st)). Qed.
Lemma store_finally_b P d n (st : mstate) : st_store (finally_b P d n st) = st_store st.
Proof. exact (sc_store _ _ (sc_finally_b P d n st)). Qed.
Lemma store_set_event n (st : mstate) : st_store (set_event n st) = st_store st.
Proof. exact (sc_store _ _ (sc_set_event n st)). Qed.
Lemma events_notify c (st : mstate) : st_events (notify c st) = st_events st.
Proof. exact (sc_events _ _ (core_notify c st)). Qed.
Lemma events_notify_keys ks (st : mstate) : st_events (notify_keys ks st) = st_events st.
Proof. exact (sc_events _ _ (core_notify_keys ks st)). Qed.
Lemma events_cancel_tasks ts (st : mstate) : st_events (cancel_tasks ts st) = st_events st.
Proof. exact (sc_events _ _ (core_cancel_tasks ts st)). Qed.
Lemma events_cancel_task t (st : mstate) : st_events (cancel_task t st) = st_events st.
Proof. exact (sc_events _ _ (core_cancel_task t st)). Qed.
Lemma events_wake_all w sg (st : mstate) : st_events (wake_all w sg st) = st_events st.
Proof. exact (sc_events _ _ (core_wake_all w sg st)). Qed.
Lemma events_finally_b P d n (st : mstate) : st_events (finally_b P d n st) = add_set key_eqb n (st_events st).
Proof. exact (sc_events _ _ (sc_finally_b P d n st)). Qed.
Lemma events_set_event n (st : mstate) : st_events (set_event n st) = add_set key_eqb n (st_events st).
Proof. exact (sc_events _ _ (sc_set_event n st)). Qed.
Lemma adddata_notify c (st : mstate) : st_adddata (notify c st) = st_adddata st.
Proof. exact (sc_adddata _ _ (core_notify c st)). Qed.
Lemma adddata_notify_keys ks (st : mstate) : st_adddata (notify_keys ks st) = st_adddata st.
Proof. exact (sc_adddata _ _ (core_notify_keys ks st)). Qed.
Lemma adddata_cancel_tasks ts (st : mstate) : st_adddata (cancel_tasks ts st) = st_adddata st.
Proof. exact (sc_adddata _ _ (core_cancel_tasks ts st)). Qed.
Lemma adddata_cancel_task t (st : mstate) : st_adddata (cancel_task t st) = st_adddata st.
Proof. exact (sc_adddata _ _ (core_cancel_task t st)). Qed.
Lemma adddata_wake_all w sg (st : mstate) : st_adddata (wake_all w sg st) = st_adddata st.
Proof. exact (sc_adddata _ _ (core_wake_all w sg st)). Qed.
Lemma adddata_finally_b P d n (st : mstate) : st_adddata (finally_b P d n st) = st_adddata st.
Proof. exact (sc_adddata _ _ (sc_finally_b P d n st)). Qed.
Lemma adddata_set_event n (st : mstate) : st_adddata (set_event n st) = st_adddata st.
Proof. exact (sc_adddata _ _ (sc_set_event n st)). Qed.
Lemma next_notify c (st : mstate) : st_next (notify c st) = st_next st.
Proof. exact (sc_next _ _ (core_notify c st)). Qed.
Lemma next_notify_keys ks (st : mstate) : st_next (notify_keys ks st) = st_next st.
Proof. exact (sc_next _ _ (core_notify_keys ks st)). Qed.
Lemma next_cancel_tasks ts (st : mstate) : st_next (cancel_tasks ts st) = st_next st.
Proof. exact (sc_next _ _ (core_cancel_tasks ts st)). Qed.
Lemma next_finally_b P d n (st : mstate) : st_next (finally_b P d n st) = st_next st.
Proof. exact (sc_next _ _ (sc_finally_b P d n st)). Qed.
Lemma next_set_event n (st : mstate) : st_next (set_event n st) = st_next st.
Proof. exact (sc_next _ _ (sc_set_event n st)). Qed.
Lemma trace_notify c (st : mstate) : st_trace (notify c st) = st_trace st.
Proof. exact (sc_trace _ _ (core_notify c st)). Qed.
Lemma trace_notify_keys ks (st : mstate) : st_trace (notify_keys ks st) = st_trace st.
Proof. exact (sc_trace _ _ (core_notify_keys ks st)). Qed.
Lemma trace_cancel_tasks ts (st : mstate) : st_trace (cancel_tasks ts st) = st_trace st.
Proof. exact (sc_trace _ _ (core_cancel_tasks ts st)). Qed.
Lemma trace_cancel_task t (st : mstate) : st_trace (cancel_task t st) = st_trace st.
Proof. exact (sc_trace _ _ (core_cancel_task t st)). Qed.
Lemma trace_wake_all w sg (st : mstate) : st_trace (wake_all w sg st) = st_trace st.
Proof. exact (sc_trace _ _ (core_wake_all w sg st)). Qed.
Lemma trace_finally_b P d n (st : mstate) : st_trace (finally_b P d n st) = st_trace st.
Proof. exact (sc_trace _ _ (sc_finally_b P d n st)). Qed.
Lemma trace_set_event n (st : mstate) : st_trace (set_event n st) = st_trace st.
Proof. exact (sc_trace _ _ (sc_set_event n st)). Qed.
Lemma names_notify c (st : mstate) : names (notify c st) = names st.
Proof. exact (sc_names _ _ (core_notify c st)). Qed.
Lemma names_notify_keys ks (st : mstate) : names (notify_keys ks st) = names st.
Proof. exact (sc_names _ _ (core_notify_keys ks st)). Qed.
Lemma names_cancel_tasks ts (st : mstate) : names (cancel_tasks ts st) = names st.
Proof. exact (sc_names _ _ (core_cancel_tasks ts st)). Qed.
Lemma names_cancel_task t (st : mstate) : names (cancel_task t st) = names st.
Proof. exact (sc_names _ _ (core_cancel_task t st)). Qed.
Lemma names_wake_all w sg (st : mstate) : names (wake_all w sg st) = names st.
Proof. exact (sc_names _ _ (core_wake_all w sg st)). Qed.
Lemma names_finally_b P d n (st : mstate) : names (finally_b P d n st) = names st.
Proof. exact (sc_names _ _ (sc_finally_b P d n st)). Qed.
Lemma names_set_event n (st : mstate) : names (set_event n st) = names st.
Proof. exact (sc_names _ _ (sc_set_event n st)). Qed.
Global Hint Rewrite store_notify store_notify_keys store_cancel_tasks store_cancel_task store_wake_all store_finally_b store_set_event events_notify events_notify_keys events_cancel_tasks events_cancel_task events_wake_all events_finally_b events_set_event adddata_notify adddata_notify_keys adddata_cancel_tasks adddata_cancel_task adddata_wake_all adddata_finally_b adddata_set_event next_notify next_notify_keys next_cancel_tasks cancel_task_next wake_all_next next_finally_b next_set_event trace_notify trace_notify_keys trace_cancel_tasks trace_cancel_task trace_wake_all trace_finally_b trace_set_event : core.
Global Hint Rewrite names_notify names_notify_keys names_cancel_tasks names_cancel_task names_wake_all names_finally_b names_set_event : core.

Section Summary.
  Variable P : prog.

  Definition step_store (fr : frame) (sg : signal) (st : mstate) : storage :=
    match fr, sg with
    | FExecStart d n f, SGo => if exists_processed n (st_store st) then st_store st else set_processed n (st_store st)
    | FNodeAfterExec d n, SVal res => set_result n res (st_store st)
    | _, _ => st_store st
    end.

  Definition step_event (fr : frame) (sg : signal) : option key :=
    match fr, sg with
    | FNodeAfterExec d n, SElsewhere | FNodeAfterExec d n, SThrow _ => Some n
    | FNodeAfterSave d n true, SVal _ | FNodeAfterSave d n true, SThrow _ => Some n
    | _, _ => None
    end.

  Lemma plain_step_summary t fr sg st :
    plain_frame P fr = true -> clean_sig sg -> PS st ->
    st_store (fst (step_frame P t fr sg st)) = step_store fr sg st /\
    st_events (fst (step_frame P t fr sg st)) = match step_event fr sg with Some n => add_set key_eqb n (st_events st) | None => st_events st end /\
    st_adddata (fst (step_frame P t fr sg st)) = st_adddata st.
  Proof.
    intros Hf Hs Hst. rewrite (step_plain P t fr sg st Hf Hs Hst). cbn [plain_step fst].
    unfold step_store, step_event. plain_cases fr sg Hf Hs; cbn [run_act run_effs fold_left run_eff]; autorewrite with core;
      repeat split; reflexivity.
  Qed.

  (* the observations a step adds to the trace, newest first *)
  Definition eff_obs (e : eff) : list obs := match e with EObs o => [o] | _ => [] end.
  Definition plain_obs (fr : frame) (sg : signal) (st : mstate) : list obs :=
    match fst (plain_act P fr sg st) with
    | ANew nm _ => [OSpawn (st_next st) nm]
    | ADo l => rev (flat_map eff_obs l)
    end.

  Lemma trace_run_effs l st : st_trace (run_effs P l st) = rev (flat_map eff_obs l) ++ st_trace st.
  Proof.
    unfold run_effs. revert st. induction l as [|e r IH]; intros st; cbn [fold_left flat_map]; [reflexivity|].
    rewrite IH, rev_app_distr, <- app_assoc. f_equal. destruct e; cbn [run_eff eff_obs rev app]; autorewrite with core; reflexivity.
  Qed.

  Lemma plain_step_trace t fr sg st :
    plain_frame P fr = true -> clean_sig sg -> PS st -> st_trace (fst (step_frame P t fr sg st)) = plain_obs fr sg st ++ st_trace st.
  Proof.
    intros Hf Hs Hst. rewrite (step_plain P t fr sg st Hf Hs Hst). unfold plain_obs. cbn [plain_step fst].
    destruct (fst (plain_act P fr sg st)) as [l|nm f]; cbn [run_act]; [apply trace_run_effs|reflexivity].
  Qed.

  Inductive records (st : mstate) : frame -> signal -> obs -> Prop :=
  | rec_launcher v : records st FChartAfterStart (SVal v) (OSpawn (st_next st) TNRun)
  | rec_node d n r l : records st (FDagLoop d (n :: r) l) SGo (OSpawn (st_next st) (TNNode n))
  | rec_emit ev n err res mgr : records st (FEmit ev n err res mgr false) SGo (OEmit mgr ev n err res)
  | rec_save n v k : p_store P <> StNone -> records st (FSave n v false k) SGo (OSave n v)
  | rec_run_done sg alts : records st FRunWait sg (ORunDone alts)
  | rec_result d n v : records st (FNodeAfterExec d n) (SVal v) (OSetResult n v)
  | rec_processed d n f : records st (FExecStart d n f) SGo (OProcessed n)
  | rec_start i kw att : records st (FRetry i false kw att) SGo (OStart i (ctr_get (CBody i) st) kw)
  | rec_default i kw att : records st (FRetryAfterBody i kw att) SGo (ODefault i kw)
  | rec_sleep i kw att v : records st (FRetryAfterEmit i kw att) (SVal v) (OSleep i (pol_delay (nspec_of P i))).

  Lemma plain_obs_records fr sg st : plain_obs fr sg st = [] \/ exists o, plain_obs fr sg st = [o] /\ records st fr sg o.
  Proof.
    unfold plain_obs. destruct fr; destruct sg; cbn [plain_act fst]; unfold pools_missing;
      repeat (break_match; cbn [fst flat_map eff_obs rev app]); try (left; reflexivity);
      right; eexists; (split; [reflexivity|]); try (constructor; congruence).
    match goal with H : pol_delay _ = S _ |- _ => rewrite <- H end. constructor.
  Qed.

  Lemma plain_step_records t fr sg st :
    plain_frame P fr = true -> clean_sig sg -> PS st ->
    st_trace (fst (step_frame P t fr sg st)) = st_trace st \/
    exists o, st_trace (fst (step_frame P t fr sg st)) = o :: st_trace st /\ records st fr sg o.
  Proof.
    intros Hf Hs Hst. rewrite (plain_step_trace t fr sg st Hf Hs Hst).
    destruct (plain_obs_records fr sg st) as [->|[o [-> Ho]]]; [left; reflexivity|right; exists o; split; [reflexivity|exact Ho]].
  Qed.

  Definition leaves_run (fr : frame) (sg : signal) (d : directive) : bool :=
    match fr, sg, d with FRunWait, SGo, DRet _ | FRunWait, SThrow _, DRet _ => true | _, _, _ => false end.

  (* manager.run cancels its helper tasks exactly where it returns, and marks the trace there *)
  Lemma leaves_run_act fr sg st :
    leaves_run fr sg (snd (plain_act P fr sg st))
    = match fst (plain_act P fr sg st) with ADo l => existsb (fun e => match e with ECancelHelpers => true | _ => false end) l | ANew _ _ => false end.
  Proof. destruct fr; destruct sg; cbn [plain_act fst snd leaves_run]; unfold report, pools_missing; repeat (break_match; cbn [fst snd leaves_run existsb orb]); reflexivity. Qed.

  Lemma leaves_run_obs fr sg st : existsb is_rundone (plain_obs fr sg st) = leaves_run fr sg (snd (plain_act P fr sg st)).
  Proof.
    unfold plain_obs. destruct fr; destruct sg; cbn [plain_act fst snd leaves_run]; unfold report, pools_missing;
      repeat (break_match; cbn [fst snd leaves_run flat_map eff_obs rev app existsb is_rundone orb]); reflexivity.
  Qed.

  Lemma plain_step_over t fr sg st :
    plain_frame P fr = true -> clean_sig sg -> PS st ->
    over (fst (step_frame P t fr sg st)) = over st || leaves_run fr sg (snd (step_frame P t fr sg st)).
  Proof.
    intros Hf Hs Hst. unfold over. rewrite (plain_step_trace t fr sg st Hf Hs Hst), existsb_app, leaves_run_obs, orb_comm.
    rewrite (step_plain P t fr sg st Hf Hs Hst). reflexivity.
  Qed.
End Summary.

Definition spawn_frame_of (P : prog) (nm : tname) : frame :=
  match nm with TNNode n => FNodeStart (maind P) n false | _ => FDagStart (maind P) end.

(* the other tasks across a step that does not leave manager.run: nobody is cancelled *)
Section NoCancel.
  Variable P : prog.
  Notation G := (b_graph (build (p_decls P) (p_inp P) (p_out P))).
  Hypothesis Hsw : forall n, is_switch G n = false.
  Hypothesis Hhd : forall n, is_head G n = false.
  Variable TP : task frame -> Prop.
  Hypothesis TP_wake : forall x w k, t_state x = TWait w k -> TP x -> TP (with_ts x (TReady k SGo)).

  Lemma plain_step_tasks_nc t fr sg st :
    plain_frame P fr = true -> clean_sig sg -> PS st -> leaves_run fr sg (snd (step_frame P t fr sg st)) = false ->
    (forall nm, In nm (creates P fr sg st) ->
                TP {| t_id := st_next st; t_name := nm; t_state := TReady [spawn_frame_of P nm] SGo; t_helper := true |}) ->
    tasks_ok TP st -> tasks_ok TP (fst (step_frame P t fr sg st)).
  Proof.
    intros Hf Hs Hst. rewrite (step_plain P t fr sg st Hf Hs Hst), creates_act. cbn [plain_step fst snd]. rewrite leaves_run_act.
    intros Hlr Hcr. apply (run_act_tasks P TP TP_wake).
    - intros l E Hin. exfalso. rewrite E in Hlr.
      assert (Ht : existsb (fun e => match e with ECancelHelpers => true | _ => false end) l = true) by (apply existsb_exists; eauto).
      congruence.
    - intros nm f E. rewrite E in Hcr.
      replace f with [spawn_frame_of P nm]; [apply Hcr; left; reflexivity|].
      destruct (plain_act_new P Hsw Hhd _ _ _ _ _ Hf E) as [[-> ->]|[n [-> ->]]]; reflexivity.
  Qed.
End NoCancel.

Definition not_parked (w : wait) (st : mstate) : Prop :=
  forall t x k, find_task t (st_tasks st) = Some x -> t_state x <> TWait w k.

Lemma wake_all_parked w' sg (st : mstate) t x w k :
  find_task t (st_tasks (wake_all w' sg st)) = Some x -> t_state x = TWait w k -> find_task t (st_tasks st) = Some x.
Proof.
  unfold wake_all. generalize (filter (fun p : wait * tid => wait_eqb (fst p) w') (st_waiters st)).
  set (s0 := set_waiters _ st). change (st_tasks st) with (st_tasks s0). generalize s0. clear s0.
  intros s0 l. revert s0. induction l as [|p r IH]; intros s0 Hx Hk; cbn [fold_left] in Hx; [exact Hx|].
  specialize (IH _ Hx Hk). destruct (wake_parked _ _ _ _ _ _ _ IH Hk) as [_ H]. exact H.
Qed.

Lemma np_wake_all_other w w' sg st : not_parked w st -> not_parked w (wake_all w' sg st).
Proof. intros H t x k Hx Hk. exact (H t x k (wake_all_parked _ _ _ _ _ _ _ Hx Hk) Hk). Qed.

Lemma np_wake_all_self w sg st : wc st -> not_parked w (wake_all w sg st).
Proof. intros H t x k Hx. exact (nobody_parked_after_wake_all w sg st t x k H Hx). Qed.

Lemma np_notify_keys w ks st : not_parked w st -> not_parked w (notify_keys ks st).
Proof. unfold notify_keys. revert st. induction ks as [|k r IH]; intros st H; cbn [fold_left]; [exact H|]. apply IH. apply np_wake_all_other. exact H. Qed.

Lemma np_notify_keys_in n ks st : wc st -> In n ks -> not_parked (WCond (CNode n)) (notify_keys ks st).
Proof.
  unfold notify_keys. revert st. induction ks as [|k r IH]; intros st Hw Hin; [contradiction|]. cbn [fold_left].
  destruct Hin as [->|Hin].
  - apply (np_notify_keys _ r). apply np_wake_all_self. exact Hw.
  - apply IH; [apply wc_notify; exact Hw|exact Hin].
Qed.

Lemma finally_b_wakes P d n st :
  wc st -> not_parked (WCond CRun) (finally_b P d n st) /\
           (forall n', In n' (descendants P n) -> not_parked (WCond (CNode n')) (finally_b P d n st)).
Proof.
  intros Hw. unfold finally_b.
  assert (W1 : wc (set_event n st)) by (apply wc_set_event; exact Hw).
  assert (W2 : wc (notify_keys (descendants P n) (set_event n st))) by (apply wc_notify_keys; exact W1).
  split.
  - destruct (key_eqb n (d_dst d)); [apply np_wake_all_other|]; apply np_wake_all_self; exact W2.
  - intros n' Hin. destruct (key_eqb n (d_dst d)); [apply np_wake_all_other|]; apply np_wake_all_other; apply np_notify_keys_in; assumption.
Qed.
