(* ALL programs, every schedule, whatever the event managers do (raise, suspend): every on_node_complete of a node --
   the final one or the one reporting a failed attempt that will be retried -- comes after every manager's on_node_start for
   that node (C14). *)
From MLPE Require Import Engine.Run Proofs.ExecLemmas Proofs.Evolve Proofs.Micro Proofs.PlainLive Proofs.PlainCore Proofs.PlainNodeStart
     Proofs.StackAll.

Section CompleteAll.
  Variable P : prog.

  Definition toldi (tr : list obs) (i : nat) : Prop := exists nd, real_index nd = i /\ told P tr nd.
  Lemma toldi_mono new tr i : toldi tr i -> toldi (new ++ tr) i.
  Proof. intros [nd [A B]]. exists nd. split; [exact A|apply told_mono; exact B]. Qed.

  Definition cf (tr : list obs) (f : frame) : Prop :=
    match f with
    | FExecAfterBody _ n | FExecAfterOk _ n _ => told P tr n
    | FRetry i _ _ _ | FRetryAfterBody i _ _ | FRetryAfterEmit i _ _ | FRetryAfterSleep i _ _ => toldi tr i
    | FEmit EvNodeComplete (Some n) _ _ _ _ => toldi tr (real_index n)
    | _ => True
    end.
  Definition stack_cf (tr : list obs) (k : list frame) : Prop := forall f, In f k -> cf tr f.
  Definition cf_TP (tr : list obs) (x : task frame) : Prop := stack_cf tr (estack (t_state x)).

  Lemma cf_mono new tr f : cf tr f -> cf (new ++ tr) f.
  Proof.
    destruct f; cbn [cf]; try (intros; exact I); try apply told_mono; try apply toldi_mono.
    destruct ev; try (intros; exact I). destruct n as [n|]; try (intros; exact I). apply toldi_mono.
  Qed.
  Lemma step_cf t fr sg st f :
    cf (st_trace st) fr -> topS P (st_trace st) fr (Some sg) -> In f (dir_frames (snd (step_frame P t fr sg st))) ->
    cf (st_trace (fst (step_frame P t fr sg st))) f.
  Proof.
    intros Hfr Htop.
    destruct (ev_trace _ _ (ev_step_frame P t fr sg st)) as [new Etr]. rewrite Etr. clear Etr. intros Hin0. apply cf_mono. revert Hin0. revert Hfr Htop.
    intros Hfr Htop Hin. destruct (step_pushed P t fr sg st f Hin) as [k' [Hp Hf]].
    destruct Hp; cbn [In] in Hf; repeat (destruct Hf as [<-|Hf]); try contradiction; cbn [cf topS real_index] in *; try exact I; try exact Hfr.
    all: try (destruct ev; try exact I; destruct n as [n9|]; try exact I; exact Hfr).
    all: try (exists n; split; [reflexivity|]; first [exact Hfr | apply Htop; eauto]).
    all: try (apply Htop; eauto).
  Qed.

  Definition completes_ok (tr : list obs) : Prop :=
    forall a b m n e r, tr = a ++ OEmit m EvNodeComplete (Some n) e r :: b -> toldi b (real_index n).

  Theorem creach_completes : forall st c, creach P st c ->
    tasks_ok (cf_TP (st_trace st)) st /\
    (match c with Some (_, k, _) => stack_cf (st_trace st) k | None => True end) /\
    completes_ok (st_trace st).
  Proof.
    set (Q := fun o b => match o with OEmit _ EvNodeComplete (Some n) _ _ => toldi b (real_index n) | _ => True end).
    intros st c Hc. destruct (creach_frames_inv P cf (after_each Q)) with (st := st) (c := c) as (A & B & C); try assumption.
    - intros new tr f. apply cf_mono.
    - exact I.
    - apply after_each_one. exact I.
    - intros st0 t fr rest sg Hc0 B C. specialize (B fr (or_introl eq_refl)).
      destruct (creach_start_all P _ _ Hc0) as (_ & (_ & Bt & _) & _). cbn [topCS] in Bt.
      destruct (step_obs P t fr sg st0) as [new [Etr Hnew]]. split.
      + intros f [Hs|Hin]; [apply spawns_spawn_frame in Hs; destruct f; try discriminate Hs; exact I|exact (step_cf t fr sg st0 f B Bt Hin)].
      + rewrite Etr. apply after_each_app; [|exact C|].
        * intros [] b b'; cbn [Q]; auto. destruct ev; auto. destruct n; auto. apply toldi_mono.
        * intros o Ho. specialize (Hnew o Ho). destruct o; try exact I. cbn [obs_origin] in Hnew. subst fr. exact B.
    - split; [exact A|]. split; [exact B|]. intros a b m n e r E. exact (C a _ b E).
  Qed.
End CompleteAll.

Theorem node_complete_follows_node_start_all_programs P :
  forall st, reachable P st ->
    forall a b m n e r, st_trace st = a ++ OEmit m EvNodeComplete (Some n) e r :: b ->
      exists nd, real_index nd = real_index n /\ forall m', m' < p_mgrs P -> In (start_ev m' nd) b.
Proof.
  intros st Hr a b m n e r E. destruct (creach_completes P st None (reachable_creach P st Hr)) as (_ & _ & Hc).
  exact (Hc a b m n e r E).
Qed.
