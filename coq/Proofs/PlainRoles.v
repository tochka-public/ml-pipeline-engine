(* Plain programs, every schedule: who is who. While manager.run has not returned: at most one launcher exists, it is created by
   the chart task exactly when that task enters manager.run; the node tasks that exist are exactly a prefix of the topological
   order, one per node, and the launcher holds the rest; a processed node has its task; no helper has been cancelled. *)
From MLPE Require Import Engine.Run Proofs.ExecLemmas Proofs.Evolve Proofs.StackInv Proofs.ProcessedInv Proofs.PlainWorld Proofs.PlainStep Proofs.PlainLaunch Proofs.PlainLive Proofs.Micro Proofs.PlainBase Proofs.StackAll Proofs.PlainCore Proofs.PlainInv.

Definition is_early_frame (f : frame) : bool := match f with FChartStart | FChartAfterStart => true | _ => false end.
Definition has_early (k : list frame) : bool := existsb is_early_frame k.
Definition cancelled_ts (ts : tstate frame) : bool :=
  match ts with TReady _ (SThrow XCancelled) | TDone (SThrow XCancelled) => true | _ => false end.
Definition dir_sig (d : directive) : option signal := match d with DCont _ s | DRet s => Some s | _ => None end.

(* the table after a step: the running task is written back when it parks, and only then *)
Lemma ok_after_step (TP : task frame -> Prop) t rest (r : mstate * directive) :
  tasks_ok TP (fst r) -> (forall x, find_task t (st_tasks (fst r)) = Some x -> TP x -> TP (with_ts x (nstate rest (snd r)))) ->
  tasks_ok TP (fst (after_step t rest r)).
Proof.
  intros H Hw. destruct r as [st1 [w k'|k'|k' sg'|sg']]; cbn [after_step fst snd nstate] in *; try exact H.
  - apply ok_suspend; assumption.
  - apply ok_push_ready, ok_set_tstate; assumption.
Qed.

Lemma has_early_app a b : has_early (a ++ b) = has_early a || has_early b.
Proof. unfold has_early. apply existsb_app. Qed.

Lemma two_named (f : tname -> bool) (l : list (task frame)) x y :
  In x l -> In y l -> t_id x <> t_id y -> f (t_name x) = true -> f (t_name y) = true ->
  2 <= length (filter f (map (@t_name frame) l)).
Proof.
  intros Hx Hy Hne Ex Ey.
  assert (One : forall (r : list (task frame)) z, In z r -> f (t_name z) = true -> 1 <= length (filter f (map (@t_name frame) r))).
  { induction r as [|w r' IH']; intros z Hz Ez; [contradiction|]. cbn [map filter]. destruct Hz as [->|Hz].
    - rewrite Ez. cbn. lia.
    - specialize (IH' z Hz Ez). destruct (f (t_name w)); cbn [length]; lia. }
  induction l as [|z r IH]; [contradiction|]. cbn [map filter].
  destruct Hx as [Hx|Hx]; destruct Hy as [Hy|Hy].
  - subst. contradiction.
  - subst z. rewrite Ex. cbn [length]. apply le_n_S. exact (One r y Hy Ey).
  - subst z. rewrite Ey. cbn [length]. apply le_n_S. exact (One r x Hx Ex).
  - specialize (IH Hx Hy). destruct (f (t_name z)); cbn [length]; lia.
Qed.

Lemma no_run_filter (l : list tname) : ~ In TNRun l -> filter is_run_name l = [].
Proof.
  induction l as [|a r IH]; intros Hno; [reflexivity|]. cbn [filter]. destruct a; cbn [is_run_name]; try (apply IH; intros H; apply Hno; right; exact H).
  exfalso. apply Hno. left. reflexivity.
Qed.

Lemma launcher_unique st (x y : task frame) :
  length (filter is_run_name (names st)) <= 1 -> In x (st_tasks st) -> In y (st_tasks st) -> t_name x = TNRun -> t_name y = TNRun -> t_id x = t_id y.
Proof.
  intros G2 Hx Hy Ex Ey. destruct (Nat.eq_dec (t_id x) (t_id y)) as [E|E]; [exact E|]. exfalso.
  pose proof (two_named is_run_name _ x y Hx Hy E) as H2. rewrite Ex, Ey in H2. specialize (H2 eq_refl eq_refl). fold (names st) in H2. lia.
Qed.

Lemma task_errors_not_cancelled (st : mstate) e : In e (task_errors st) -> e <> XCancelled.
Proof.
  unfold task_errors. intros H. apply in_flat_map in H. destruct H as [x [_ H]].
  destruct (t_helper x); [|contradiction]. destruct (t_state x) as [| |r]; try contradiction.
  destruct r as [| | |e0|]; try contradiction. destruct e0; try contradiction; destruct H as [<-|[]]; discriminate.
Qed.

Section Roles.
  Variable P : prog.

  Lemma creates_cases fr sg st :
    creates P fr sg st = [] \/ (fr = FChartAfterStart /\ creates P fr sg st = [TNRun]) \/
    exists d n r l, fr = FDagLoop d (n :: r) l /\ sg = SGo /\ creates P fr sg st = [TNNode n].
  Proof.
    destruct fr; destruct sg; cbn [creates]; auto; try (destruct rest; auto; fail).
    - destruct (_ || _); auto.
    - destruct rest as [|n r]; auto. destruct (is_ready _ _ _ _); eauto 10.
  Qed.

  Lemma creates_shape fr sg st nm :
    In nm (creates P fr sg st) ->
    (nm = TNRun /\ fr = FChartAfterStart) \/ (exists d n r l, fr = FDagLoop d (n :: r) l /\ nm = TNNode n /\ sg = SGo).
  Proof.
    intros Hin. destruct (creates_cases fr sg st) as [E|[[-> E]|(d & n & r & l & -> & -> & E)]]; rewrite E in Hin;
      [contradiction|destruct Hin as [<-|[]]; auto|destruct Hin as [<-|[]]; right; eauto 8].
  Qed.

  Lemma step_effects t fr sg st :
    plain_frame P fr = true -> clean_sig sg -> PS st ->
    names (fst (step_frame P t fr sg st)) = names st ++ creates P fr sg st /\
    node_names (fst (step_frame P t fr sg st))
    = node_names st ++ flat_map (fun nm => match nm with TNNode m => [m] | _ => [] end) (creates P fr sg st) /\
    st_store (fst (step_frame P t fr sg st)) = step_store fr sg st /\
    forall m, event_is_set m (fst (step_frame P t fr sg st))
              = match step_event fr sg with Some n => key_eqb m n || event_is_set m st | None => event_is_set m st end.
  Proof.
    intros Hf Hs Hst. pose proof (plain_step_names P t fr sg st Hf Hs Hst) as Hn. destruct (plain_step_summary P t fr sg st Hf Hs Hst) as (Hs1 & He & _).
    split; [exact Hn|]. split; [unfold node_names; rewrite Hn; apply flat_map_app|]. split; [exact Hs1|].
    intros m. unfold event_is_set. rewrite He. destruct (step_event fr sg); [apply mem_add_set_eq|reflexivity].
  Qed.

  Lemma running_entry st t fr sg x0 :
    find_task t (st_tasks st) = Some x0 -> exists x', In x' (st_tasks (fst (step_frame P t fr sg st))) /\ t_name x' = t_name x0 /\ t_id x' = t.
  Proof.
    intros Hf. destruct (evolves_find _ _ _ _ (ev_step_frame P t fr sg st) Hf) as (x' & Hf' & Hnm & _). destruct (find_task_in _ _ _ Hf'). eauto.
  Qed.

  Lemma plain_step_early t fr sg st :
    plain_frame P fr = true -> clean_sig sg -> PS st ->
    has_early (dir_frames (snd (step_frame P t fr sg st))) = true -> fr = FChartStart.
  Proof.
    intros Hf Hs Hst. rewrite (step_dir P t fr sg st Hf Hs Hst).
    plain_cases fr sg Hf Hs; cbn [dir_frames has_early existsb is_early_frame emit_frames orb]; intros H; try discriminate H; reflexivity.
  Qed.

  Lemma plain_step_nocancel_sig t fr sg st s' :
    plain_frame P fr = true -> clean_sig sg -> PS st -> sg <> SThrow XCancelled ->
    dir_sig (snd (step_frame P t fr sg st)) = Some s' -> s' <> SThrow XCancelled.
  Proof.
    intros Hf Hs Hst Hnc. rewrite (step_dir P t fr sg st Hf Hs Hst).
    plain_cases fr sg Hf Hs; cbn [dir_sig]; intros H; try discriminate H; inversion H; subst; try discriminate; try assumption;
      try (intros E; inversion E; subst; apply Hnc; reflexivity);
      try (intros E; inversion E; subst; match goal with Hq : is_Exception XCancelled = true |- _ => discriminate Hq end).
    (* the error manager.run reports is one of a finished helper: never the cancellation itself *)
    intros E. inversion E as [E']. apply (task_errors_not_cancelled st (pick_error P e l)); [rewrite Heql; apply pick_error_in|exact E'].
  Qed.
End Roles.

Section RolesInv.
  Variable P : prog.
  Notation G := (b_graph (build (p_decls P) (p_inp P) (p_out P))).
  Hypothesis Hsw : forall n, is_switch G n = false.
  Hypothesis Hhd : forall n, is_head G n = false.
  Hypothesis Hbody : forall i kw a v, p_body P i kw a = OVal v -> clean v = true.
  Notation order := (p_order P (maind P)).

  Definition rest_of (ts : tstate frame) : option (list key) :=
    match ts with
    | TReady [FDagStart _] SGo | TWait _ [FDagStart _] => Some order
    | TReady [FDagLoop _ r _] SGo | TWait _ [FDagLoop _ r _] => Some r
    | TReady [FDagFinal _] SGo | TWait _ [FDagFinal _] => Some []
    | TDone (SVal _) => Some []
    | _ => None
    end.

  Definition PhiR (st : mstate) (i : idt) (ts : tstate frame) : Prop :=
    (fst (fst i) = main_tid <-> snd (fst i) = TNMain) /\
    (fst (fst i) = main_tid -> snd i = false) /\
    (fst (fst i) = main_tid -> has_early (estack ts) = true -> ~ In TNRun (names st)) /\
    (snd (fst i) = TNRun -> exists rest, rest_of ts = Some rest /\ order = node_names st ++ rest) /\
    (snd i = true -> cancelled_ts ts = false).

  Definition globR (st : mstate) : Prop :=
    (forall m, exists_processed m (st_store st) = true -> In m (node_names st)) /\
    length (filter is_run_name (names st)) <= 1 /\
    (~ In TNRun (names st) -> node_names st = []).

  Definition rolesI (st : mstate) (c : running) : Prop := guard st \/ (globR st /\ allT (PhiR st) st c).

  Lemma PhiR_ext a b i ts : same_core a b -> PhiR a i ts -> PhiR b i ts.
  Proof. unfold PhiR, node_names. intros (_ & _ & _ & -> & _). auto. Qed.
  Lemma globR_ext a b : same_core a b -> globR a -> globR b.
  Proof. unfold globR, node_names. intros (-> & _ & _ & -> & _). auto. Qed.

  Lemma PhiR_wake st : wake_closed (PhiR st).
  Proof.
    intros i w k (A & B & C & D & E). repeat split; try apply A; auto.
  Qed.

  Lemma run_ident st t fr sg x0 x :
    evolves (init_state) st -> find_task t (st_tasks st) = Some x0 ->
    In x (st_tasks (fst (step_frame P t fr sg st))) -> t_id x = t -> ident x = ident x0.
  Proof.
    intros He Hf Hx Hid. pose proof (ev_step_frame P t fr sg st) as Hev.
    destruct (evolves_find _ _ _ _ Hev Hf) as [x' [Hf' [Hnm [Hh Hid']]]].
    destruct (evolved_shape _ (evolves_trans _ _ _ He Hev)) as [xa [ra [_ [_ [_ [_ [Hndi _]]]]]]].
    destruct (find_task_in _ _ _ Hf') as [Hin' Hidx'].
    assert (x = x') by (apply (nodup_ids_inj _ _ _ Hndi Hx Hin'); congruence). subst x'. unfold ident. congruence.
  Qed.

  Lemma in_names st (x : task frame) : In x (st_tasks st) -> In (t_name x) (names st).
  Proof. intros H. unfold names. apply in_map. exact H. Qed.

  Lemma node_names_in st m : In m (node_names st) <-> In (TNNode m) (names st).
  Proof.
    unfold node_names. rewrite in_flat_map. split.
    - intros [nm [Hnm H]]. destruct nm; try contradiction. destruct H as [->|[]]. exact Hnm.
    - intros H. exists (TNNode m). split; [exact H|left; reflexivity].
  Qed.

  Lemma node_names_snoc l nm :
    flat_map (fun nm => match nm with TNNode m => [m] | _ => [] end) (l ++ [nm]) =
    flat_map (fun nm => match nm with TNNode m => [m] | _ => [] end) l ++ match nm with TNNode m => [m] | _ => [] end.
  Proof. rewrite flat_map_app. cbn. rewrite app_nil_r. reflexivity. Qed.

  Lemma owner_exec_start nm d n f : owner nm (FExecStart d n f) = true -> nm = TNNode n.
  Proof. destruct nm; cbn; try discriminate. intros H. apply key_eqb_spec in H. subst. reflexivity. Qed.
  Lemma owner_chart_after_start nm : owner nm FChartAfterStart = true -> nm = TNMain.
  Proof. destruct nm; cbn; try discriminate. reflexivity. Qed.
  Lemma owner_dag_loop nm d r l : owner nm (FDagLoop d r l) = true -> nm = TNRun.
  Proof. destruct nm; cbn; try discriminate. reflexivity. Qed.

  Lemma globR_step st t fr rest sg :
    base P st (Some (t, fr :: rest, sg)) -> globR st -> allT (PhiR st) st (Some (t, fr :: rest, sg)) ->
    globR (fst (step_frame P t fr sg st)).
  Proof.
    intros Hb (G1 & G2 & G3) HA.
    destruct (base_running P _ _ _ _ _ Hb) as (x0 & Hf0 & Hin0 & Hid0 & Kf & _ & Hs & Of & _).
    destruct (step_effects P t fr sg st Kf Hs (b_ps _ _ _ Hb)) as (Hn & Hnn & Hst & _).
    destruct (allT_run _ _ _ _ _ _ x0 HA Hin0 Hid0) as (X1 & _ & X3 & _). cbn [ident fst snd] in X1, X3.
    pose proof (in_names _ _ Hin0) as Hnm0.
    unfold globR. rewrite Hn, Hnn, Hst. split.
    - (* a node is marked by its own task *)
      intros m Hm'. apply in_or_app. left.
      unfold step_store in Hm'. destruct fr; try (apply G1; exact Hm'); destruct sg; try (apply G1; exact Hm').
      destruct (exists_processed n (st_store st)) eqn:E; [apply G1; exact Hm'|].
      rewrite processed_set in Hm'. apply orb_true_iff in Hm'. destruct Hm' as [Hm'|Hm']; [|apply G1; exact Hm'].
      apply key_eqb_spec in Hm'. subst m. apply node_names_in. rewrite <- (owner_exec_start _ _ _ _ Of). exact Hnm0.
    - destruct (creates_cases P fr sg st) as [Ec|[[-> Ec]|(d & n & r & l & -> & -> & Ec)]]; rewrite Ec; cbn [flat_map app].
      + rewrite !app_nil_r. split; assumption.
      + (* the chart task creates the launcher: it is still early, so there was none *)
        assert (Hno : ~ In TNRun (names st)) by (apply X3; [apply X1, (owner_chart_after_start _ Of)|reflexivity]).
        rewrite app_nil_r, filter_app, app_length, (no_run_filter _ Hno). split; [cbn; lia|].
        intros H. exfalso. apply H, in_or_app. right. left. reflexivity.
      +
        rewrite filter_app, app_length. split; [cbn [filter is_run_name length]; lia|].
        intros H. exfalso. apply H, in_or_app. left. rewrite <- (owner_dag_loop _ _ _ _ Of). exact Hnm0.
  Qed.

  Lemma filter_unprocessed_id (st : mstate) (l : list key) :
    (forall m, In m l -> exists_processed m (st_store st) = false) ->
    filter (fun k => negb (exists_processed k (st_store st))) l = l.
  Proof.
    induction l as [|a r IH]; intros H; cbn [filter]; [reflexivity|]. rewrite (H a (or_introl eq_refl)). cbn. rewrite IH; [reflexivity|].
    intros m Hm. apply H. right. exact Hm.
  Qed.

  Lemma launcher_step st t fr rest sg r0 :
    PS st -> plain_frame P fr = true -> globR st ->
    rest_of (TReady (fr :: rest) sg) = Some r0 -> order = node_names st ++ r0 ->
    exists r1, rest_of (nstate rest (snd (step_frame P t fr sg st))) = Some r1
               /\ order = node_names (fst (step_frame P t fr sg st)) ++ r1.
  Proof.
    intros Hst Hf (G1 & G2 & G3) Hr Ho. pose proof Hst as Hst'. unfold PS in Hst'.
    destruct rest as [|g rest']; [|destruct fr; discriminate Hr].
    destruct fr; try discriminate Hr; destruct sg; try discriminate Hr; cbn [plain_frame] in Hf; apply is_main_eq in Hf; subst d;
      cbn [rest_of] in Hr; inversion Hr; subst r0; clear Hr.
    -
      assert (E0 : node_names st = []).
      { destruct (node_names st) as [|a l]; [reflexivity|]. exfalso. apply (f_equal (@length key)) in Ho. rewrite app_length in Ho. cbn in Ho. lia. }
      assert (Ef : filter (fun k => negb (exists_processed k (st_store st))) order = order).
      { apply filter_unprocessed_id. intros m _. destruct (exists_processed m (st_store st)) eqn:E; [|reflexivity].
        pose proof (G1 m E) as Hin. rewrite E0 in Hin. contradiction. }
      cbn [step_frame d_rec maind]. rewrite Ef. destruct order as [|a l] eqn:Eo.
      + cbn [snd fst nstate rest_of]. exists []. split; [reflexivity|]. rewrite E0. reflexivity.
      + cbn [snd fst nstate app rest_of]. exists (a :: l). split; [reflexivity|]. rewrite E0. reflexivity.
    -
      destruct rest as [|n r].
      + cbn [step_frame snd fst nstate app rest_of]. exists []. split; [reflexivity|exact Ho].
      + cbn [step_frame]. destruct (is_ready P (st_store st) (maind P) n) eqn:Er.
        * cbn [d_oneof maind andb]. rewrite (plain_dep_error P _ _ _ Hst'), Hsw, Hhd.
          destruct (spawn (TNNode n) true [FNodeStart (maind P) n false] st) as [s1 t'] eqn:Es.
          cbn [snd fst nstate app rest_of]. exists r. split; [reflexivity|].
          assert (E1 : s1 = fst (spawn (TNNode n) true [FNodeStart (maind P) n false] st)) by (rewrite Es; reflexivity).
          unfold node_names. rewrite E1, names_spawn, node_names_snoc. fold (node_names st). rewrite <- app_assoc. exact Ho.
        * cbn [snd fst nstate app rest_of]. exists (n :: r). split; [reflexivity|exact Ho].
    -
      cbn [step_frame]. destruct (exists_result (d_dst (maind P)) (st_store st)).
      + cbn [snd fst nstate rest_of]. exists []. split; [reflexivity|exact Ho].
      + cbn [snd fst nstate app rest_of]. exists []. split; [reflexivity|exact Ho].
  Qed.

  Lemma not_cancelled_ts s k : s <> SThrow XCancelled -> cancelled_ts (TReady k s) = false /\ cancelled_ts (TDone s) = false.
  Proof. intros H. destruct s as [| | |e|]; cbn; auto. destruct e; cbn; auto. exfalso. apply H. reflexivity. Qed.

  Lemma cancelled_nstate rest d :
    (forall s, dir_sig d = Some s -> s <> SThrow XCancelled) -> cancelled_ts (nstate rest d) = false.
  Proof.
    destruct d as [w k'|k'|k' sg'|sg']; cbn [nstate dir_sig cancelled_ts]; intros H; try reflexivity.
    - destruct (not_cancelled_ts sg' (k' ++ rest) (H _ eq_refl)). destruct (k' ++ rest); assumption.
    - destruct (not_cancelled_ts sg' rest (H _ eq_refl)). destruct rest; assumption.
  Qed.

  Lemma rolesA_step st t fr rest sg :
    base P st (Some (t, fr :: rest, sg)) -> globR st -> allT (PhiR st) st (Some (t, fr :: rest, sg)) ->
    leaves_run fr sg (snd (step_frame P t fr sg st)) = false ->
    allT (PhiR (fst (step_frame P t fr sg st)))
         (fst (after_step t rest (step_frame P t fr sg st))) (snd (after_step t rest (step_frame P t fr sg st))).
  Proof.
    intros Hb HG HA Hlr. pose proof (globR_step st t fr rest sg Hb HG HA) as HG1. destruct HG as (G1 & G2 & G3).
    destruct (base_running P _ _ _ _ _ Hb) as (x0 & Hf0 & Hin0 & Hid0 & Kf & Kr & Hs & Of & Or & Hc). pose proof (b_ps _ _ _ Hb) as Hps.
    destruct (step_effects P t fr sg st Kf Hs Hps) as (Hn & Hnn & _).
    destruct (allT_run _ _ _ _ _ _ x0 HA Hin0 Hid0) as (X1 & X2 & X3 & X4 & X5). cbn [ident fst snd] in X1, X2, X3, X4, X5.
    pose proof (in_names _ _ Hin0) as Hnm0. pose proof (base_next _ _ _ Hb) as Hnx.
    apply (allT_step P Hsw Hhd (PhiR st)); try assumption.
    - apply PhiR_wake.
    -
      intros nm Hnm. unfold PhiR. cbn [fst snd estack cancelled_ts].
      destruct (creates_shape P fr sg st nm Hnm) as [[-> ->]|[d [n [r [l0 [-> [-> ->]]]]]]].
      + assert (Hno : ~ In TNRun (names st)) by (apply X3; [apply X1; apply (owner_chart_after_start _ Of)|reflexivity]).
        repeat split; try (unfold main_tid; intros; lia); try discriminate.
        intros _. exists order. split; [reflexivity|]. rewrite (G3 Hno). reflexivity.
      + repeat split; try (unfold main_tid; intros; lia); try discriminate.
    -
      intros y ts Hy Hne (A & B & C & D & E). unfold PhiR. cbn [ident fst snd] in *. repeat split; try apply A; auto.
      + intros Hi He Hin. rewrite Hn in Hin. apply in_app_or in Hin. destruct Hin as [Hin|Hin]; [exact (C Hi He Hin)|].
        destruct (creates_shape P fr sg st _ Hin) as [[_ ->]|[d [n [r [l0 [_ [Hx _]]]]]]]; [|discriminate Hx].
        apply Hne. rewrite Hi. rewrite <- Hid0. symmetry. apply X1. apply (owner_chart_after_start _ Of).
      + intros Hnm. destruct (D Hnm) as [r [Hr Hor]]. exists r. split; [exact Hr|]. rewrite Hnn.
        destruct (creates_cases P fr sg st) as [Ec|[[_ Ec]|(d & n & r' & l0 & -> & _ & _)]];
          [rewrite Ec, app_nil_r; exact Hor|rewrite Ec, app_nil_r; exact Hor|].
        (* a node task is created by the launcher, and y is another launcher: impossible *)
        exfalso. destruct (running_entry P st t (FDagLoop d (n :: r') l0) sg x0 Hf0) as (x' & Hx' & Hnm' & Hid').
        apply Hne. rewrite <- Hid'. apply (launcher_unique _ y x' (proj1 (proj2 HG1)) Hy Hx' Hnm). rewrite Hnm'. exact (owner_dag_loop _ _ _ _ Of).
    -
      intros x Hx Hid. rewrite (run_ident st t fr sg x0 x (b_ev _ _ _ Hb) Hf0 Hx Hid). unfold PhiR. cbn [ident fst snd].
      repeat split; try apply X1; auto.
      +
        intros Hi He Hin. rewrite estack_nstate, has_early_app in He. rewrite Hn in Hin.
        assert (Hold : has_early (fr :: rest) = true).
        { apply orb_true_iff in He. destruct He as [He|He].
          - rewrite (plain_step_early P t fr sg st Kf Hs Hps He). reflexivity.
          - unfold has_early. cbn [existsb]. fold (has_early rest). rewrite He. apply orb_true_r. }
        apply in_app_or in Hin. destruct Hin as [Hin|Hin]; [exact (X3 Hi Hold Hin)|].
        destruct (creates_shape P fr sg st _ Hin) as [[_ ->]|[d [n [r [l0 [_ [Hxx _]]]]]]]; [|discriminate Hxx].
        assert (rest = []) by (apply (below_chart FChartAfterStart); [reflexivity|exact Hc]). subst rest.
        rewrite orb_false_r in He. pose proof (plain_step_early P t _ sg st Kf Hs Hps He) as Hcontra. discriminate Hcontra.
      +
        intros Hnm. destruct (X4 Hnm) as [r0 [Hr0 Hor]].
        exact (launcher_step st t fr rest sg r0 Hps Kf (conj G1 (conj G2 G3)) Hr0 Hor).
      +
        intros Hh. apply cancelled_nstate. intros s Hsd.
        apply (plain_step_nocancel_sig P t fr sg st s Kf Hs Hps); [|exact Hsd].
        intros ->. specialize (X5 Hh). cbn in X5. discriminate X5.
  Qed.

  Theorem creach_roles : forall st c, creach P st c -> rolesI st c.
  Proof.
    apply (creach_guarded P Hsw Hhd Hbody globR PhiR globR_ext PhiR_ext PhiR_wake).
    - intros st k s (A & B & C & D & E). repeat split; auto; discriminate.
    - intros st w k (A & B & C & D & E). repeat split; auto; discriminate.
    - split; [|split].
      + intros m Hm. cbn in Hm. discriminate Hm.
      + cbn. lia.
      + reflexivity.
    - unfold PhiR. cbn. repeat split; try reflexivity; try discriminate. intros _ _ [Hx|[]]. discriminate Hx.
    - intros st t fr rest sg H _ _ Hlr HG HA. pose proof (creach_base P Hsw Hhd Hbody _ _ H) as Hb.
      split; [apply (globR_step st t fr rest sg)|apply rolesA_step]; assumption.
  Qed.
End RolesInv.
