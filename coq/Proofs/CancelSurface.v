(* C13 (iii): cancelling PipelineChart.run surfaces as CancelledError and nothing else, and never hangs. *)
From MLPE Require Import Engine.Run Proofs.ExecLemmas Proofs.Evolve Proofs.StackInv Proofs.CancelProofs Proofs.ReadyInv.

(* the chart task has a CancelledError pending, or has finished with it (or the model interpreter gave up) *)
Definition cancel_pending (ts : tstate frame) : Prop :=
  match ts with
  | TReady _ sg => sg = SThrow XCancelled
  | TDone r => r = SThrow XCancelled \/ exists k, r = SThrow (XEng EOutOfFuel k)
  | TWait _ _ => False
  end.

Lemma pending_stable : stable cancel_pending.
Proof. repeat split; intros; first [reflexivity|contradiction]. Qed.

Lemma pend_abort x k : main_TP cancel_pending x -> main_TP cancel_pending (with_ts x (TDone (SThrow (XEng EOutOfFuel k)))).
Proof. intros _ _. right. eauto. Qed.

Section Surface.
  Variable P : prog.

  Lemma main_unwind_step t fr st :
    main_frame fr = true -> snd (step_frame P t fr (SThrow XCancelled) st) = DRet (SThrow XCancelled).
  Proof. intros Hm. destruct fr; try discriminate Hm; cbn [step_frame is_Exception]; repeat break_match; reflexivity. Qed.

  Lemma exec_main_cancelled fuel k st :
    main_stack k = true -> tasks_ok (main_TP cancel_pending) st -> 1 <= st_next st ->
    tasks_ok (main_TP cancel_pending) (exec P fuel main_tid k (SThrow XCancelled) st).
  Proof.
    intros M0 H0 N0.
    apply (exec_tasks_rule P (main_TP cancel_pending) (main_wake cancel_pending pending_stable) (main_cancel_ready cancel_pending pending_stable)
             (main_cancel_wait cancel_pending pending_stable) (main_spawn cancel_pending) main_tid
             (fun ts => ts = TDone (SThrow XCancelled)) (fun k sg => main_stack k = true /\ sg = SThrow XCancelled)
             (tasks_ok (main_TP cancel_pending))); auto.
    - intros x ts _ -> _ _. cbn. left. reflexivity.
    - intros sg [_ ->]. reflexivity.
    - intros fr rest sg s [Hm ->].
      assert (Hmf : main_frame fr = true).
      { unfold main_stack in Hm. cbn [forallb] in Hm. apply andb_true_iff in Hm. apply Hm. }
      rewrite (main_unwind_step main_tid fr s Hmf). split; [apply (main_stack_tail fr); exact Hm|reflexivity].
    - intros s. apply ok_abort. intros x k0. apply pend_abort.
  Qed.

  Lemma action_keeps_pend a st :
    reachable P st -> tasks_ok (main_TP cancel_pending) st -> tasks_ok (main_TP cancel_pending) (apply_action P a st).
  Proof.
    revert a st. apply action_rule.
    - intros s Hr H. pose proof (reachable_stacks_ok P s Hr) as Hs.
      apply (loop_step_rule P (tasks_ok (main_TP cancel_pending))); [auto| |].
      + intros. apply ok_dequeue. exact H.
      + intros t rest x k sg Hq Hf Ht. destruct (find_task_in _ _ _ Hf) as [Hin Hid].
        pose proof (stacks_of s x Hs Hin) as [_ Hx]. rewrite Ht in Hx. destruct Hx as [[_ [_ Hm]] _].
        destruct (Nat.eq_dec t main_tid) as [->|Hne].
        * pose proof (tasks_ok_in _ _ _ H Hin Hid) as Hsg. rewrite Ht in Hsg. rewrite Hsg.
          apply exec_main_cancelled; [apply Hm; exact Hid|apply ok_dequeue; exact H|cbn; exact (reachable_next P s Hr)].
        * apply (exec_other_main cancel_pending pending_stable P t (tasks_ok (main_TP cancel_pending))); [exact Hne|auto| | |apply ok_dequeue; exact H].
          -- intros s'. apply ok_abort. intros y k0. apply pend_abort.
          -- cbn. exact (reachable_next P s Hr).
    - intros s g _. apply (main_gate cancel_pending pending_stable).
    - intros s _. apply (main_cancel cancel_pending pending_stable).
  Qed.

  Lemma pend_after_cancel st :
    reachable P st -> main_done st = false -> tasks_ok (main_TP cancel_pending) (cancel_task main_tid st).
  Proof.
    intros Hr Hd. pose proof (ev_reachable P st Hr) as He. destruct (reachable_find_main P st Hr) as [x [Hx _]].
    unfold main_done, main_state in Hd. rewrite Hx in Hd. unfold cancel_task. rewrite Hx.
    destruct x as [i nm [k s|w k|r] h]; [| |discriminate Hd].
    - apply (main_TP_set cancel_pending _ st He). reflexivity.
    - apply ok_push_ready, (main_TP_set cancel_pending _ _ (evolves_trans _ _ _ He (ev_set_waiters _ st))). reflexivity.
  Qed.

  (* Cancelling a run that has not ended: whatever happens afterwards, the chart task stays runnable with the
     CancelledError pending until it gets its turn, then ends with CancelledError (never another exception, never a
     value, never parked again) -- and as long as it has not ended the loop is not idle. *)
  Theorem cancel_surfaces_as_cancelled st sched :
    reachable P st -> main_done st = false ->
    let st' := fold_left (fun s a => apply_action P a s) sched (cancel_task main_tid st) in
    match main_state st' with
    | Some (TReady _ sg) => sg = SThrow XCancelled /\ deadlocked st' = false
    | Some (TDone r) => r = SThrow XCancelled \/ exists k, r = SThrow (XEng EOutOfFuel k)
    | _ => False
    end.
  Proof.
    intros Hr Hd st'.
    assert (Hr1 : reachable P (cancel_task main_tid st)) by exact (reach_step P st ACancel Hr).
    destruct (sched_rule P (tasks_ok (main_TP cancel_pending)) action_keeps_pend sched _ Hr1 (pend_after_cancel st Hr Hd)) as [Hr' Hp]. fold st' in Hr', Hp. destruct (reachable_find_main P st' Hr') as [x [Hx [_ Hid]]].
    unfold main_state. rewrite Hx. cbn [option_map]. destruct (find_task_in _ _ _ Hx) as [Hin _].
    pose proof (tasks_ok_in _ _ _ Hp Hin Hid) as Hm.
    destruct (t_state x) as [k sg|w k|r] eqn:E; [|exact Hm|exact Hm].
    split; [exact Hm|]. exact (ready_task_not_deadlocked P st' main_tid x k sg Hr' Hx E).
  Qed.
End Surface.
