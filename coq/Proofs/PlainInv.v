(* Plain programs: a proof principle for invariants of the form "every task, in its effective state, satisfies Phi", where Phi may
   read the core of the state (storage, history, events, task names: what waking and cancelling leave alone). One lemma per
   kind of transition of Proofs/Micro.v, and the induction over configurations done once (`creach_guarded`). *)
From MLPE Require Import Engine.Run Proofs.ExecLemmas Proofs.Evolve Proofs.StackInv Proofs.CancelProofs Proofs.PlainWorld Proofs.PlainLaunch Proofs.PlainLive Proofs.Micro Proofs.PlainBase Proofs.PlainCore.

Definition idt := (tid * tname * bool)%type.
Definition TPc (Phi : idt -> tstate frame -> Prop) (c : running) (x : task frame) : Prop := Phi (ident x) (estate c x).
Definition allT (Phi : idt -> tstate frame -> Prop) (st : mstate) (c : running) : Prop := tasks_ok (TPc Phi c) st.

Lemma allT_In (Phi : idt -> tstate frame -> Prop) st c x : allT Phi st c -> In x (st_tasks st) -> Phi (ident x) (estate c x).
Proof. unfold allT, tasks_ok. rewrite Forall_forall. intros H Hx. exact (H x Hx). Qed.

Lemma allT_run (Phi : idt -> tstate frame -> Prop) st t fr rest sg x :
  allT Phi st (Some (t, fr :: rest, sg)) -> In x (st_tasks st) -> t_id x = t -> Phi (ident x) (TReady (fr :: rest) sg).
Proof. intros H Hx Hid. pose proof (allT_In _ _ _ x H Hx) as K. cbn [estate] in K. rewrite Hid, Nat.eqb_refl in K. exact K. Qed.

Lemma allT_impl (Phi Psi : idt -> tstate frame -> Prop) st c :
  (forall x, In x (st_tasks st) -> Phi (ident x) (estate c x) -> Psi (ident x) (estate c x)) -> allT Phi st c -> allT Psi st c.
Proof. unfold allT, tasks_ok. rewrite !Forall_forall. intros H H0 x Hx. apply H; [exact Hx|]. exact (H0 x Hx). Qed.

(* the running task's state as the configuration (k, sg) gives it: what [estate] puts in place of the stale table entry *)
Definition cstate (k : list frame) (sg : signal) : tstate frame := match k with [] => TDone sg | _ => TReady k sg end.

(* the state the running task will be recorded with after a step *)
Definition nstate (rest : list frame) (d : directive) : tstate frame :=
  match d with
  | DSuspend w k' => TWait w (k' ++ rest)
  | DYield k' => TReady (k' ++ rest) SGo
  | DCont k' sg' => match k' ++ rest with [] => TDone sg' | _ => TReady (k' ++ rest) sg' end
  | DRet sg' => match rest with [] => TDone sg' | _ => TReady rest sg' end
  end.

Lemma ident_with_ts (x : task frame) ts : ident (with_ts x ts) = ident x.
Proof. reflexivity. Qed.

Lemma upd_task_Forall2 (Q Q' : task frame -> Prop) t f (l : list (task frame)) :
  NoDup (map (@t_id frame) l) -> Forall Q l ->
  (forall x, find_task t l = Some x -> Q x -> Q' (f x)) -> (forall x, t_id x <> t -> Q x -> Q' x) -> Forall Q' (upd_task t f l).
Proof.
  induction l as [|y r IH]; cbn [upd_task map find_task]; intros Hnd H Hf Ho; [constructor|].
  inversion H; subst. inversion Hnd as [|a b Hni Hr]; subst. destruct (Nat.eqb (t_id y) t) eqn:E.
  - constructor; [apply Hf; [reflexivity|assumption]|]. apply Nat.eqb_eq in E.
    rewrite Forall_forall in *. intros z Hz. apply Ho; [|auto]. intros Ez. apply Hni. rewrite E, <- Ez. apply in_map. exact Hz.
  - constructor; [apply Ho; [apply Nat.eqb_neq; exact E|assumption]|]. apply IH; assumption.
Qed.

Section Inv.
  Variable P : prog.
  Notation G := (b_graph (build (p_decls P) (p_inp P) (p_out P))).
  Hypothesis Hsw : forall n, is_switch G n = false.
  Hypothesis Hhd : forall n, is_head G n = false.

  Definition wake_closed (Phi : idt -> tstate frame -> Prop) : Prop :=
    forall i w k, Phi i (TWait w k) -> Phi i (TReady k SGo).

  Lemma base_nodup st c : base P st c -> NoDup (map (@t_id frame) (st_tasks st)).
  Proof. intros Hb. destruct (evolved_shape _ (b_ev _ _ _ Hb)) as [x0 [r [_ [_ [_ [_ [Hnd _]]]]]]]. exact Hnd. Qed.

  Lemma allT_start (Phi : idt -> tstate frame -> Prop) st t x k sg :
    base P st None -> find_task t (st_tasks st) = Some x -> t_state x = TReady k sg ->
    allT Phi st None -> allT Phi (dequeue st) (Some (t, k, sg)).
  Proof.
    intros Hb Hf Ht H. pose proof (base_nodup _ _ Hb) as Hnd.
    destruct (find_task_in _ _ _ Hf) as [Hin Hid].
    pose proof (b_stacks _ _ _ Hb) as Hs. unfold stacks_ok, tasks_ok in Hs. rewrite Forall_forall in Hs.
    destruct (Hs x Hin) as [_ Hx]. rewrite Ht in Hx. destruct Hx as [[Hne _] _].
    unfold allT, tasks_ok in *. cbn [dequeue st_tasks]. rewrite Forall_forall in *. intros y Hy. specialize (H y Hy).
    unfold TPc in *. cbn [estate] in *. destruct (Nat.eqb (t_id y) t) eqn:E; [|exact H].
    apply Nat.eqb_eq in E. assert (y = x) by (apply (nodup_ids_inj _ _ _ Hnd Hy Hin); congruence).
    subst y. rewrite Ht in H. destruct k; [contradiction|exact H].
  Qed.

  Lemma allT_skip (Phi : idt -> tstate frame -> Prop) st : allT Phi st None -> allT Phi (dequeue st) None.
  Proof. intros H. exact H. Qed.

  Lemma allT_done (Phi : idt -> tstate frame -> Prop) st t sg : base P st (Some (t, [], sg)) -> allT Phi st (Some (t, [], sg)) -> allT Phi (set_tstate t (TDone sg) st) None.
  Proof.
    intros Hb H. pose proof (base_nodup _ _ Hb) as Hnd. unfold allT, tasks_ok, set_tstate in *. cbn [st_tasks].
    apply (upd_task_Forall2 _ _ _ _ _ Hnd H).
    - intros y Hy Hty. destruct (find_task_in _ _ _ Hy) as [_ Hid]. unfold TPc in *. cbn [estate] in *.
      rewrite Hid, Nat.eqb_refl in Hty. exact Hty.
    - intros y Hy Hty. unfold TPc in *. cbn [estate] in *. apply Nat.eqb_neq in Hy. rewrite Hy in Hty. exact Hty.
  Qed.

  Lemma allT_gate (Phi : idt -> tstate frame -> Prop) st g : wake_closed Phi -> allT Phi st None -> allT Phi (complete_gate g st) None.
  Proof.
    intros Hw H. unfold allT in *. apply complete_gate_tasks_ok; [|exact H].
    intros x w k Hx Hp. unfold TPc in *. cbn [estate] in *. rewrite Hx in Hp. rewrite ident_with_ts. cbn. eapply Hw. exact Hp.
  Qed.

  Lemma main_ident st x : evolves (init_state) st -> In x (st_tasks st) -> t_id x = main_tid -> ident x = (main_tid, TNMain, false).
  Proof.
    intros He Hx Hid. destruct (ev_tasks _ _ He) as [new [E [F _]]]. cbn in E, F.
    apply (in_map ident) in Hx. rewrite E in Hx. destruct Hx as [Hx|Hx]; [symmetry; exact Hx|].
    rewrite Forall_forall in F. specialize (F _ Hx). unfold tr_id, ident in F. cbn in F. unfold main_tid in Hid. lia.
  Qed.

  Lemma allT_cancel_main (Phi : idt -> tstate frame -> Prop) st :
    evolves (init_state) st ->
    (forall k sg, Phi (main_tid, TNMain, false) (TReady k sg) -> Phi (main_tid, TNMain, false) (TReady k (SThrow XCancelled))) ->
    (forall w k, Phi (main_tid, TNMain, false) (TWait w k) -> Phi (main_tid, TNMain, false) (TReady k (SThrow XCancelled))) ->
    allT Phi st None -> allT Phi (cancel_task main_tid st) None.
  Proof.
    intros He Hr Hw H. unfold allT in *. unfold cancel_task. destruct (find_task main_tid (st_tasks st)) as [x|] eqn:F; [|exact H].
    destruct (find_task_in _ _ _ F) as [Hin Hid]. pose proof (main_ident st x He Hin Hid) as Hi.
    destruct x as [i nm [k s|w k|r] h]; try exact H.
    - apply ok_set_tstate; [exact H|]. intros y Hy HT. rewrite F in Hy. inversion Hy; subst y. unfold TPc in *. cbn [estate] in *.
      rewrite ident_with_ts, Hi in *. exact (Hr _ _ HT).
    - match goal with |- tasks_ok _ (push_ready _ ?s) => apply (tasks_ok_same _ s); [reflexivity|] end.
      apply ok_set_tstate; [exact H|]. intros y Hy HT. cbn in Hy. rewrite F in Hy. inversion Hy; subst y. unfold TPc in *. cbn [estate] in *.
      rewrite ident_with_ts, Hi in *. exact (Hw _ _ HT).
  Qed.

  Lemma evolves_ids st : evolves (init_state) st -> forall x, In x (st_tasks st) -> t_id x < st_next st.
  Proof.
    intros H x Hx. destruct (ev_tasks _ _ H) as [new [E [F _]]]. pose proof (ev_next _ _ H) as N. cbn in E, F, N.
    apply (in_map ident) in Hx. rewrite E in Hx. destruct Hx as [Hx|Hx].
    - unfold ident in Hx. inversion Hx. lia.
    - rewrite Forall_forall in F. specialize (F _ Hx). cbn in F. unfold tr_id in F. unfold ident in F. cbn in F. lia.
  Qed.

  Lemma allT_step' (Phi Phi' : idt -> tstate frame -> Prop) st t fr rest sg :
    base P st (Some (t, fr :: rest, sg)) ->
    allT Phi st (Some (t, fr :: rest, sg)) ->
    leaves_run fr sg (snd (step_frame P t fr sg st)) = false ->
    wake_closed Phi ->
    (forall nm, In nm (creates P fr sg st) -> Phi (st_next st, nm, true) (TReady [spawn_frame_of P nm] SGo)) ->
    (forall y, In y (st_tasks (fst (step_frame P t fr sg st))) -> t_id y <> t -> Phi (ident y) (t_state y) -> Phi' (ident y) (t_state y)) ->
    (forall x, In x (st_tasks (fst (step_frame P t fr sg st))) -> t_id x = t ->
               Phi' (ident x) (nstate rest (snd (step_frame P t fr sg st)))) ->
    allT Phi' (fst (after_step t rest (step_frame P t fr sg st))) (snd (after_step t rest (step_frame P t fr sg st))).
  Proof.
    intros Hb H Hlr Hw Hsp Hlift Hrun.
    destruct (b_cur _ _ _ Hb) as [x0 [Hf0 [Hk [Hs [Ho [Hc Hm]]]]]].
    cbn [plain_stack forallb] in Hk. apply andb_true_iff in Hk. destruct Hk as [Kf Kr].
    pose proof (evolves_ids _ (b_ev _ _ _ Hb)) as Hids. destruct (find_task_in _ _ _ Hf0) as [Hin0 Hid0].
    assert (Hlt : t < st_next st) by (rewrite <- Hid0; apply Hids; exact Hin0).
    set (c0 := Some (t, fr :: rest, sg)) in *.
    assert (H1 : tasks_ok (TPc Phi c0) (fst (step_frame P t fr sg st))).
    { assert (TPW : forall x w k, t_state x = TWait w k -> TPc Phi c0 x -> TPc Phi c0 (with_ts x (TReady k SGo))).
      { intros x w k Hx Hp. unfold TPc in *. rewrite ident_with_ts. unfold c0 in *. cbn [estate t_id with_ts] in *.
        destruct (Nat.eqb (t_id x) t); [exact Hp|]. rewrite Hx in Hp. cbn. eapply Hw. exact Hp. }
      assert (SPW : forall nm, In nm (creates P fr sg st) ->
                               TPc Phi c0 {| t_id := st_next st; t_name := nm; t_state := TReady [spawn_frame_of P nm] SGo; t_helper := true |}).
      { intros nm Hnm. unfold TPc, c0. cbn [estate t_id ident t_name t_helper t_state].
        replace (Nat.eqb (st_next st) t) with false by (symmetry; apply Nat.eqb_neq; lia). apply Hsp. exact Hnm. }
      exact (plain_step_tasks_nc P Hsw Hhd (TPc Phi c0) TPW t fr sg st Kf Hs (b_ps _ _ _ Hb) Hlr SPW H). }
    pose proof (ev_step_frame P t fr sg st) as Hev.
    assert (Hnd1 : NoDup (map (@t_id frame) (st_tasks (fst (step_frame P t fr sg st))))).
    { destruct (evolved_shape _ (evolves_trans _ _ _ (b_ev _ _ _ Hb) Hev)) as [xa [ra [_ [_ [_ [_ [Hnd _]]]]]]]. exact Hnd. }
    assert (H1in : Forall (fun y => In y (st_tasks (fst (step_frame P t fr sg st))) /\ TPc Phi c0 y) (st_tasks (fst (step_frame P t fr sg st)))).
    { unfold tasks_ok in H1. rewrite Forall_forall in *. intros y Hy. split; [exact Hy|apply H1; exact Hy]. }
    destruct (step_frame P t fr sg st) as [st1 [w k'|k'|k' sg'|sg']]; cbn [after_step fst snd nstate] in *.
    - unfold allT, tasks_ok, suspend, set_waiters, set_tstate in *. cbn [st_tasks].
      apply (upd_task_Forall2 _ _ _ _ _ Hnd1 H1in).
      + intros y Hy _. destruct (find_task_in _ _ _ Hy) as [Hiy Hidy]. unfold TPc. cbn [estate]. apply (Hrun y Hiy Hidy).
      + intros y Hy [Hiy Hp]. unfold TPc, c0 in *. cbn [estate] in *. pose proof Hy as Hy'. apply Nat.eqb_neq in Hy. rewrite Hy in Hp. apply Hlift; assumption.
    - unfold allT, tasks_ok, push_ready, set_tstate in *. cbn [st_tasks].
      apply (upd_task_Forall2 _ _ _ _ _ Hnd1 H1in).
      + intros y Hy _. destruct (find_task_in _ _ _ Hy) as [Hiy Hidy]. unfold TPc. cbn [estate]. apply (Hrun y Hiy Hidy).
      + intros y Hy [Hiy Hp]. unfold TPc, c0 in *. cbn [estate] in *. pose proof Hy as Hy'. apply Nat.eqb_neq in Hy. rewrite Hy in Hp. apply Hlift; assumption.
    - unfold allT, tasks_ok in *. rewrite Forall_forall in *. intros y Hy. specialize (H1 y Hy). unfold TPc, c0 in *. cbn [estate] in *.
      destruct (Nat.eqb (t_id y) t) eqn:E; [apply Nat.eqb_eq in E; apply (Hrun y Hy E)|apply Nat.eqb_neq in E; apply Hlift; assumption].
    - unfold allT, tasks_ok in *. rewrite Forall_forall in *. intros y Hy. specialize (H1 y Hy). unfold TPc, c0 in *. cbn [estate] in *.
      destruct (Nat.eqb (t_id y) t) eqn:E; [apply Nat.eqb_eq in E; apply (Hrun y Hy E)|apply Nat.eqb_neq in E; apply Hlift; assumption].
  Qed.

  Lemma allT_step (Phi Phi' : idt -> tstate frame -> Prop) st t fr rest sg :
    base P st (Some (t, fr :: rest, sg)) ->
    allT Phi st (Some (t, fr :: rest, sg)) ->
    leaves_run fr sg (snd (step_frame P t fr sg st)) = false ->
    wake_closed Phi ->
    (forall nm, In nm (creates P fr sg st) -> Phi (st_next st, nm, true) (TReady [spawn_frame_of P nm] SGo)) ->
    (forall y ts, In y (st_tasks (fst (step_frame P t fr sg st))) -> t_id y <> t -> Phi (ident y) ts -> Phi' (ident y) ts) ->
    (forall x, In x (st_tasks (fst (step_frame P t fr sg st))) -> t_id x = t ->
               Phi' (ident x) (nstate rest (snd (step_frame P t fr sg st)))) ->
    allT Phi' (fst (after_step t rest (step_frame P t fr sg st))) (snd (after_step t rest (step_frame P t fr sg st))).
  Proof.
    intros Hb H Hlr Hw Hsp Hlift Hrun. apply (allT_step' Phi Phi'); try assumption.
    intros y Hy Hne. apply Hlift; assumption.
  Qed.
End Inv.

Lemma over_evolves a b : evolves a b -> over a = true -> over b = true.
Proof. intros [_ _ [new E] _] H. unfold over in *. rewrite E, existsb_app, H. apply orb_true_r. Qed.

Section Guard.
  Variable P : prog.

  Definition md_step :=
    step_frame_tasks_ok P (main_TP ended) (main_wake ended ended_stable) (main_cancel_ready ended ended_stable)
                        (main_cancel_wait ended ended_stable) (main_spawn ended).

  Definition guard (st : mstate) : Prop := over st = true \/ main_done st = true.

  Lemma guard_dequeue st : guard st -> guard (dequeue st).
  Proof. intros H. exact H. Qed.

  Lemma guard_done st t sg : evolves (init_state) st -> guard st -> guard (set_tstate t (TDone sg) st).
  Proof.
    intros He [H|H]; [left; exact H|right].
    apply (main_done_iff _ (evolves_trans _ _ _ He (ev_set_tstate t (TDone sg) st))).
    apply ok_set_tstate; [apply (main_done_iff _ He); exact H|]. intros x _ _ _. exact I.
  Qed.

  Lemma guard_abort st : evolves (init_state) st -> guard (abort P st).
  Proof.
    intros He. right. apply (main_done_iff _ (evolves_trans _ _ _ He (ev_abort P st))).
    unfold tasks_ok, abort. cbn [st_tasks]. rewrite Forall_forall. intros y Hy. apply in_map_iff in Hy. destruct Hy as [x [<- _]].
    intros _. exact I.
  Qed.

  Lemma guard_gate st g : evolves (init_state) st -> guard st -> guard (complete_gate g st).
  Proof.
    intros He [H|H].
    - left. exact (over_evolves _ _ (ev_action P (AGate g) st) H).
    - right. apply (main_done_iff _ (evolves_trans _ _ _ He (ev_action P (AGate g) st))).
      apply (main_gate ended ended_stable). apply (main_done_iff _ He). exact H.
  Qed.

  Lemma guard_cancel st : evolves (init_state) st -> guard st -> guard (cancel_task main_tid st).
  Proof.
    intros He [H|H].
    - left. exact (over_evolves _ _ (ev_action P ACancel st) H).
    - right. apply (main_done_iff _ (evolves_trans _ _ _ He (ev_action P ACancel st))).
      apply (main_cancel ended ended_stable). apply (main_done_iff _ He). exact H.
  Qed.
End Guard.

Section GuardStep.
  Variable P : prog.

  Lemma guard_step st t fr rest sg :
    base P st (Some (t, fr :: rest, sg)) -> guard st -> guard (fst (after_step t rest (step_frame P t fr sg st))).
  Proof.
    intros Hb [H|H]; [left; exact (over_evolves _ _ (ev_after_step P t rest fr sg st) H)|right].
    pose proof (b_ev _ _ _ Hb) as He.
    apply (main_done_iff _ (evolves_trans _ _ _ He (ev_after_step P t rest fr sg st))).
    pose proof (proj1 (main_done_iff _ He) H) as Hm.
    pose proof (md_step P t fr sg st (base_next _ _ _ Hb) Hm) as Hm1.
    destruct (b_cur _ _ _ Hb) as [x [Hf [_ [_ [_ [_ [_ [k0 [sg0 Hrdy]]]]]]]]].
    assert (Hne : t <> main_tid).
    { intros ->. destruct (find_task_in _ _ _ Hf) as [Hin Hid]. unfold tasks_ok in Hm. rewrite Forall_forall in Hm.
      pose proof (Hm x Hin Hid) as Hr. rewrite Hrdy in Hr. exact Hr. }
    assert (Hc : forall s ts, tasks_ok (main_TP ended) s -> tasks_ok (main_TP ended) (set_tstate t ts s)).
    { intros s ts Hs. apply ok_set_tstate; [exact Hs|]. intros y Hy _ Hi. destruct (find_task_in _ _ _ Hy) as [_ Hid]. cbn in Hi. congruence. }
    destruct (step_frame P t fr sg st) as [st1 [w k'|k'|k' sg'|sg']]; cbn [after_step fst] in *; try exact Hm1.
    - unfold suspend. match goal with |- tasks_ok _ (set_waiters _ ?s) => apply (tasks_ok_same _ s); [reflexivity|] end. apply Hc. exact Hm1.
    - apply ok_push_ready. apply Hc. exact Hm1.
  Qed.
End GuardStep.

Lemma sc_dequeue st : same_core st (dequeue st). Proof. repeat split. Qed.
Lemma sc_after_step t rest r : same_core (fst r) (fst (after_step t rest r)).
Proof.
  destruct r as [st1 [w k'|k'|k' sg'|sg']]; cbn [after_step fst]; try apply sc_refl.
  - apply sc_suspend.
  - eapply sc_trans; [apply sc_set_tstate|apply sc_push_ready].
Qed.
Lemma names_after_step t rest r : names (fst (after_step t rest r)) = names (fst r). Proof. apply sc_names, sc_after_step. Qed.
Lemma store_after_step t rest r : st_store (fst (after_step t rest r)) = st_store (fst r). Proof. apply sc_store, sc_after_step. Qed.
Lemma trace_after_step t rest r : st_trace (fst (after_step t rest r)) = st_trace (fst r). Proof. apply sc_trace, sc_after_step. Qed.
Lemma over_after_step t rest r : over (fst (after_step t rest r)) = over (fst r). Proof. unfold over. rewrite trace_after_step. reflexivity. Qed.

(* An invariant "manager.run has returned or the chart task is done, or: glob holds and every task, in its effective state,
   satisfies Phi", for glob and Phi that only read what waking and cancelling leave alone. What has to be supplied is the
   initial state and one frame step that does not leave manager.run, taken at a configuration where neither guard holds, so
   that invariants already established can be used there and at the configuration after the step. *)
Section Guarded.
  Variable P : prog.
  Notation G := (b_graph (build (p_decls P) (p_inp P) (p_out P))).
  Hypothesis Hsw : forall n, is_switch G n = false.
  Hypothesis Hhd : forall n, is_head G n = false.
  Hypothesis Hbody : forall i kw a v, p_body P i kw a = OVal v -> clean v = true.

  Variable glob : mstate -> Prop.
  Variable Phi : mstate -> idt -> tstate frame -> Prop.
  Hypothesis glob_ext : forall a b, same_core a b -> glob a -> glob b.
  Hypothesis Phi_ext : forall a b i ts, same_core a b -> Phi a i ts -> Phi b i ts.
  Hypothesis Phi_wake : forall st, wake_closed (Phi st).
  Hypothesis Phi_cancel_ready :
    forall st k sg, Phi st (main_tid, TNMain, false) (TReady k sg) -> Phi st (main_tid, TNMain, false) (TReady k (SThrow XCancelled)).
  Hypothesis Phi_cancel_wait :
    forall st w k, Phi st (main_tid, TNMain, false) (TWait w k) -> Phi st (main_tid, TNMain, false) (TReady k (SThrow XCancelled)).
  Hypothesis glob_init : glob (init_state).
  Hypothesis Phi_init : Phi (init_state) (main_tid, TNMain, false) (TReady [FChartStart] SGo).
  Hypothesis step :
    forall st t fr rest sg,
      creach P st (Some (t, fr :: rest, sg)) -> ~ guard st -> ~ guard (fst (after_step t rest (step_frame P t fr sg st))) ->
      leaves_run fr sg (snd (step_frame P t fr sg st)) = false ->
      glob st -> allT (Phi st) st (Some (t, fr :: rest, sg)) ->
      glob (fst (step_frame P t fr sg st)) /\
      allT (Phi (fst (step_frame P t fr sg st)))
           (fst (after_step t rest (step_frame P t fr sg st))) (snd (after_step t rest (step_frame P t fr sg st))).

  Lemma allT_core a b st c : same_core a b -> allT (Phi a) st c -> allT (Phi b) st c.
  Proof. intros E. apply allT_impl. intros x _. apply Phi_ext. exact E. Qed.

  Lemma unguard st (A : Prop) : guard st \/ A -> ~ guard st -> A.
  Proof. intros [H|H] Hn; [contradiction|exact H]. Qed.

  Lemma guard_dec st : guard st \/ ~ guard st.
  Proof. unfold guard. destruct (over st), (main_done st); auto. right. intros [H|H]; discriminate H. Qed.

  Theorem creach_guarded : forall st c, creach P st c -> guard st \/ (glob st /\ allT (Phi st) st c).
  Proof.
    intros st c H.
    induction H as [|st t rest x k sg H IH Hq Hf Ht|st t rest H IH Hq|st t fr rest sg H IH|st t sg H IH|st c H IH|st g H IH|st H IH];
      try pose proof (creach_base P Hsw Hhd Hbody _ _ H) as Hb.
    - right. split; [exact glob_init|]. unfold allT, tasks_ok, init_state. cbn. constructor; [exact Phi_init|constructor].
    - destruct IH as [Hg|[HG HA]]; [left; exact Hg|right].
      split; [exact (glob_ext _ _ (sc_dequeue st) HG)|]. apply (allT_core st); [apply sc_dequeue|]. eapply (allT_start P); eassumption.
    - destruct IH as [Hg|[HG HA]]; [left; exact Hg|right]. split; [exact (glob_ext _ _ (sc_dequeue st) HG)|exact (allT_core _ _ _ _ (sc_dequeue st) HA)].
    - destruct (guard_dec (fst (after_step t rest (step_frame P t fr sg st)))) as [Hg1|Hg1]; [left; exact Hg1|right].
      destruct IH as [Hg|[HG HA]]; [exfalso; apply Hg1, (guard_step P); assumption|].
      assert (Hg0 : ~ guard st) by (intros Hg; apply Hg1, (guard_step P); assumption).
      destruct (b_cur _ _ _ Hb) as [x0 [Hf0 [Hk [Hs _]]]]. cbn [plain_stack forallb] in Hk. apply andb_true_iff in Hk. destruct Hk as [Kf _].
      destruct (leaves_run fr sg (snd (step_frame P t fr sg st))) eqn:Hlr.
      + exfalso. apply Hg1. left. rewrite over_after_step, (plain_step_over P t fr sg st Kf Hs (b_ps _ _ _ Hb)), Hlr. apply orb_true_r.
      + destruct (step st t fr rest sg H Hg0 Hg1 Hlr HG HA) as [G1 A1].
        split; [exact (glob_ext _ _ (sc_after_step t rest _) G1)|exact (allT_core _ _ _ _ (sc_after_step t rest _) A1)].
    - destruct IH as [Hg|[HG HA]]; [left; apply guard_done; [exact (b_ev _ _ _ Hb)|exact Hg]|right].
      split; [exact (glob_ext _ _ (sc_set_tstate t _ st) HG)|]. apply (allT_core st); [apply sc_set_tstate|]. apply (allT_done P); assumption.
    - left. apply guard_abort. exact (b_ev _ _ _ Hb).
    - destruct IH as [Hg|[HG HA]]; [left; apply (guard_gate P); [exact (b_ev _ _ _ Hb)|exact Hg]|right]. unfold complete_gate.
      split; [exact (glob_ext _ _ (core_wake_all _ _ st) HG)|]. apply (allT_core st); [apply core_wake_all|]. apply allT_gate; [apply Phi_wake|exact HA].
    - destruct IH as [Hg|[HG HA]]; [left; apply (guard_cancel P); [exact (b_ev _ _ _ Hb)|exact Hg]|right].
      split; [exact (glob_ext _ _ (core_cancel_task _ st) HG)|]. apply (allT_core st); [apply core_cancel_task|].
      apply allT_cancel_main; [exact (b_ev _ _ _ Hb)|apply Phi_cancel_ready|apply Phi_cancel_wait|exact HA].
  Qed.
End Guarded.

Section GuardedTasks.
  Variable P : prog.
  Notation G := (b_graph (build (p_decls P) (p_inp P) (p_out P))).
  Hypothesis Hsw : forall n, is_switch G n = false.
  Hypothesis Hhd : forall n, is_head G n = false.
  Hypothesis Hbody : forall i kw a v, p_body P i kw a = OVal v -> clean v = true.
  Variable Phi : mstate -> idt -> tstate frame -> Prop.

  Theorem creach_guarded_tasks :
    (forall a b i ts, same_core a b -> Phi a i ts -> Phi b i ts) ->
    (forall st, wake_closed (Phi st)) ->
    (forall st k sg, Phi st (main_tid, TNMain, false) (TReady k sg) -> Phi st (main_tid, TNMain, false) (TReady k (SThrow XCancelled))) ->
    (forall st w k, Phi st (main_tid, TNMain, false) (TWait w k) -> Phi st (main_tid, TNMain, false) (TReady k (SThrow XCancelled))) ->
    Phi (init_state) (main_tid, TNMain, false) (TReady [FChartStart] SGo) ->
    (forall st t fr rest sg,
        creach P st (Some (t, fr :: rest, sg)) -> ~ guard st -> ~ guard (fst (after_step t rest (step_frame P t fr sg st))) ->
        leaves_run fr sg (snd (step_frame P t fr sg st)) = false ->
        allT (Phi st) st (Some (t, fr :: rest, sg)) ->
        allT (Phi (fst (step_frame P t fr sg st)))
             (fst (after_step t rest (step_frame P t fr sg st))) (snd (after_step t rest (step_frame P t fr sg st)))) ->
    forall st c, creach P st c -> guard st \/ allT (Phi st) st c.
  Proof.
    intros He Hw Hcr Hcw Hi Hs st c H.
    assert (K : guard st \/ (True /\ allT (Phi st) st c)); [|tauto]. revert st c H.
    apply (creach_guarded P Hsw Hhd Hbody (fun _ => True) Phi (fun _ _ _ K => K) He Hw Hcr Hcw I Hi).
    intros st t fr rest sg H G0 G1 Hlr _ HA. split; [exact I|]. apply Hs; assumption.
  Qed.
End GuardedTasks.
