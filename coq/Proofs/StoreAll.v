(* ALL programs, every schedule: every result in the storage was put there by a logged store operation, and the value
   PipelineChart.run returns is the stored result of the output node (C01): it returns nothing that no node produced. *)
From MLPE Require Import Engine.Run Proofs.ExecLemmas Proofs.Micro Proofs.PlainInv Proofs.PlainExec Proofs.PlainPipe Proofs.StackAll Proofs.PlainQuiet.
Require Import Lia.

Definition Istore (st : mstate) : Prop :=
  forall n v, alookup key_eqb n (s_results (st_store st)) = Some v -> In (OSetResult n v) (st_trace st).

Section StoreAll.
  Variable P : prog.

  Theorem creach_store : forall st c, creach P st c -> Istore st.
  Proof.
    apply (creach_state_inv P Istore).
    - intros n v Hl. discriminate Hl.
    - intros a b (Es & _ & Et & _) Ha n v. rewrite Es, Et. apply Ha.
    - intros st t fr rest sg _ HI n v Hl. destruct (step_changes P t fr sg st) as ([new Etr] & R & _).
      destruct (R n v Hl) as [E|Hin]; [|exact Hin]. rewrite Etr. apply in_or_app. right. exact (HI n v E).
  Qed.
End StoreAll.

Lemma exists_result_lookup k s : exists_result k s = true -> alookup key_eqb k (s_results s) = Some (get_result k true s).
Proof.
  unfold exists_result, get_result, get_result_opt. cbn [negb andb]. destruct (mem key_eqb k (s_res_hidden s)); [discriminate|].
  destruct (alookup key_eqb k (s_results s)); [reflexivity|discriminate].
Qed.

Section Returned.
  Variable P : prog.
  Notation out := (b_output (build (p_decls P) (p_inp P) (p_out P))).
  Hypothesis Hnf : forall m ev n k, p_mgr_fault P m ev n k = false.

  Definition stored (tr : list obs) (v : value) : Prop := In (OSetResult out v) tr.
  Definition vr_ok (tr : list obs) (k : list frame) (sg : option signal) : Prop :=
    (forall v, In (FChartAfterEmitOk v) k -> stored tr v) /\
    match k with FChartAfterRun :: _ => forall v, sg = Some (SVal v) -> stored tr v | _ => True end.
  Definition vr_ts (tr : list obs) (ts : tstate frame) : Prop :=
    match ts with
    | TReady k sg => vr_ok tr k (Some sg)
    | TWait _ k => vr_ok tr k None
    | TDone (SVal v) => stored tr v
    | TDone _ => True
    end.

  Lemma stored_mono new tr v : stored tr v -> stored (new ++ tr) v.
  Proof. intros H. apply in_or_app. right. exact H. Qed.
  Lemma vr_ok_mono new tr k sg : vr_ok tr k sg -> vr_ok (new ++ tr) k sg.
  Proof.
    intros [A B]. split; [intros v Hv; apply stored_mono; exact (A v Hv)|]. destruct k as [|f r]; [exact I|]. destruct f; try exact I.
    intros v Hv. apply stored_mono. exact (B v Hv).
  Qed.
  Lemma vr_ts_mono new tr ts : vr_ts tr ts -> vr_ts (new ++ tr) ts.
  Proof. destruct ts as [k sg|w k|r]; cbn [vr_ts]; try apply vr_ok_mono. destruct r; try exact (fun x => x). apply stored_mono. Qed.

  Lemma vr_ok_sig tr k s s' : (forall v, s' <> Some (SVal v)) -> vr_ok tr k s -> vr_ok tr k s'.
  Proof. intros Hs [A B]. split; [exact A|]. destruct k as [|f r]; [exact I|]. destruct f; try exact I. intros v Hv. exfalso. exact (Hs v Hv). Qed.

  Lemma main_step_ret js jc pay t fr rest sg st :
    main_ok P js jc pay (TReady (fr :: rest) sg) -> handled fr sg = true -> vr_ok (st_trace st) (fr :: rest) (Some sg) -> Istore st ->
    vr_ts (st_trace (fst (step_frame P t fr sg st))) (nstate rest (snd (step_frame P t fr sg st))).
  Proof.
    intros [Hnr H] Hh [Hv Hs] HI. cbn [main_ok] in *. chart_step_cases mk H Hnr Hh sg;
      cbn [fst snd nstate app vr_ts vr_ok emit_frames]; autorewrite with core; cbn [st_trace emit_obs bump with_store spawn fst];
      try exact I;
      try (split; [intros v1 Hin; repeat (destruct Hin as [Hin|Hin]; [try discriminate Hin; inversion Hin; subst; first [solve [apply Hs; reflexivity] | solve [right; apply Hv; cbn; auto] | solve [apply Hv; cbn; auto]]|]); try contradiction
                  |try exact I; intros v1 Hc; try discriminate Hc]);
      try solve [apply Hv; cbn; auto | right; apply Hv; cbn; auto].
    (* manager.run returns the output's result *)
    all: try (inversion Hc; subst v1; right; apply HI;
              apply exists_result_lookup;
              match goal with Hp : run_pred _ ?s = true, He : task_errors ?s = [] |- _ => unfold run_pred in Hp; rewrite He in Hp; cbn in Hp; exact Hp end).
  Qed.
End Returned.

Theorem returned_value_is_the_stored_result_of_the_output_all_programs P :
  (forall m ev n k, p_mgr_fault P m ev n k = false) ->
  forall st v, reachable P st -> main_state st = Some (TDone (SVal v)) ->
    In (OSetResult (b_output (build (p_decls P) (p_inp P) (p_out P))) v) (st_trace st).
Proof.
  intros Hnf st v Hr Hm. apply (reachable_chart_inv P Hnf (vr_ts P)) with (ts := TDone (SVal v)); try assumption.
  - apply vr_ts_mono.
  - intros tr w k. apply vr_ok_sig. discriminate.
  - intros tr k sg. apply vr_ok_sig. discriminate.
  - intros tr w k. apply vr_ok_sig. discriminate.
  - intros tr k. exact I.
  - split; [intros v0 [Hv|[]]; discriminate Hv|exact I].
  - intros js jc pay fr rest sg st0 Hc HM Hty B. exact (main_step_ret P Hnf js jc pay main_tid fr rest sg st0 HM Hty B (creach_store P _ _ Hc)).
Qed.
