(* Waiter bookkeeping, for every program and schedule:
   (1) a task that is parked is registered as a waiter of what it waits for (so a completion / notification finds it);
   (2) what a parked task waits for is determined by the frame on top of its stack;
   (3) a notification leaves no waiter of its key parked (nobody_parked_after_wake_all). *)
From MLPE Require Import Engine.Run Proofs.ExecLemmas Proofs.Evolve.

Definition wc (st : mstate) : Prop :=
  forall t x w k, find_task t (st_tasks st) = Some x -> t_state x = TWait w k -> In (w, t) (st_waiters st).

Lemma wc_same st st' : st_tasks st' = st_tasks st -> st_waiters st' = st_waiters st -> wc st -> wc st'.
Proof. unfold wc. intros -> ->. auto. Qed.
Lemma wc_push_ready t st : wc st -> wc (push_ready t st). Proof. apply wc_same; reflexivity. Qed.
Lemma wc_add_event n st : wc st -> wc (add_event n st). Proof. apply wc_same; reflexivity. Qed.
Lemma wc_dequeue st : wc st -> wc (dequeue st). Proof. apply wc_same; reflexivity. Qed.

Lemma wc_unpark t ts st : (match ts with TWait _ _ => False | _ => True end) -> wc st -> wc (set_tstate t ts st).
Proof.
  unfold wc. intros Hts H t' x w k Hx Hw. apply find_set_tstate in Hx. destruct Hx as [[-> [y [Hy ->]]]|[Hne Hx]].
  - cbn in Hw. subst ts. contradiction.
  - cbn [set_tstate st_waiters]. exact (H t' x w k Hx Hw).
Qed.

Lemma wc_wake t sg st : wc st -> wc (wake t sg st).
Proof.
  intros H. unfold wake. destruct (find_task t (st_tasks st)) as [[i nm [k s|w k|r] h]|]; try exact H.
  apply wc_push_ready. apply wc_unpark; [exact I|exact H].
Qed.

Lemma wake_parked t1 sg (s : mstate) t x w k :
  find_task t (st_tasks (wake t1 sg s)) = Some x -> t_state x = TWait w k -> t <> t1 /\ find_task t (st_tasks s) = Some x.
Proof.
  unfold wake. destruct (find_task t1 (st_tasks s)) as [[i nm [k0 s0|w0 k0|r] h]|] eqn:F; intros Hx Hk.
  - split; [|exact Hx]. intros ->. rewrite F in Hx. inversion Hx; subst. discriminate Hk.
  - cbn [push_ready st_tasks] in Hx. apply find_set_tstate in Hx. destruct Hx as [[-> [y [Hy ->]]]|[Hne Hx]]; [discriminate Hk|auto].
  - split; [|exact Hx]. intros ->. rewrite F in Hx. inversion Hx; subst. discriminate Hk.
  - split; [|exact Hx]. intros ->. rewrite F in Hx. discriminate Hx.
Qed.

Lemma wake_waiters t1 sg (s : mstate) : st_waiters (wake t1 sg s) = st_waiters s.
Proof. unfold wake. destruct (find_task t1 (st_tasks s)) as [[i nm [k0 s0|w0 k0|r] h]|]; reflexivity. Qed.

Lemma wc_wake_all w sg st : wc st -> wc (wake_all w sg st).
Proof.
  intros H. unfold wake_all.
  set (hit := filter (fun p : wait * tid => wait_eqb (fst p) w) (st_waiters st)).
  set (rest := filter (fun p : wait * tid => negb (wait_eqb (fst p) w)) (st_waiters st)).
  (* invariant of the fold: a parked task is in [rest] or still to be woken (in the remaining part of [hit]) *)
  assert (G : forall l s, st_waiters s = rest ->
                          (forall t x w' k, find_task t (st_tasks s) = Some x -> t_state x = TWait w' k -> In (w', t) rest \/ In (w', t) l) ->
                          wc (fold_left (fun s (p : wait * tid) => wake (snd p) sg s) l s)).
  { induction l as [|[w1 t1] l IH]; intros s Hw Hs; cbn [fold_left].
    - intros t x w' k Hx Hk. rewrite Hw. destruct (Hs t x w' k Hx Hk) as [A|[]]. exact A.
    - apply IH.
      + cbn [snd]. rewrite wake_waiters. exact Hw.
      + intros t x w' k Hx Hk. cbn [snd] in Hx. destruct (wake_parked t1 sg s t x w' k Hx Hk) as [Hne Hx0].
        destruct (Hs t x w' k Hx0 Hk) as [A|[A|A]]; [left; exact A| |right; exact A]. inversion A; subst. contradiction. }
  apply G.
  - reflexivity.
  - intros t x w' k Hx Hk. cbn [set_waiters st_tasks] in Hx. pose proof (H t x w' k Hx Hk) as Hin.
    destruct (wait_eqb w' w) eqn:E.
    + right. apply filter_In. split; [exact Hin|exact E].
    + left. apply filter_In. split; [exact Hin|cbn; rewrite E; reflexivity].
Qed.

Lemma wc_notify c st : wc st -> wc (notify c st). Proof. apply wc_wake_all. Qed.
Lemma wc_notify_keys ks st : wc st -> wc (notify_keys ks st).
Proof. exact (inv_notify_keys wc (fun w => wc_wake_all w SGo) ks st). Qed.
Lemma wc_set_event n st : wc st -> wc (set_event n st).
Proof. exact (inv_set_event wc wc_add_event (fun w => wc_wake_all w SGo) n st). Qed.

Lemma wc_cancel_task t st : wc st -> wc (cancel_task t st).
Proof.
  intros H. unfold cancel_task. destruct (find_task t (st_tasks st)) as [[i nm [k s|w k|r] h]|] eqn:F; try exact H.
  - apply wc_unpark; [exact I|exact H].
  - apply wc_push_ready. intros t' x w' k' Hx Hk. apply find_set_tstate in Hx. destruct Hx as [[-> [y [Hy ->]]]|[Hne Hx]]; [discriminate Hk|].
    cbn [set_tstate set_waiters st_waiters st_tasks] in *. apply filter_In. split; [exact (H t' x w' k' Hx Hk)|].
    cbn. apply negb_true_iff. apply Nat.eqb_neq. exact Hne.
Qed.

Lemma wc_suspend t w k st : wc st -> wc (suspend t w k st).
Proof.
  unfold wc, suspend. intros H t' x w' k' Hx Hk. cbn [set_waiters st_tasks st_waiters] in *.
  apply find_set_tstate in Hx. destruct Hx as [[-> [y [Hy ->]]]|[Hne Hx]].
  - cbn in Hk. inversion Hk; subst. apply in_or_app. right. left. reflexivity.
  - apply in_or_app. left. exact (H t' x w' k' Hx Hk).
Qed.

Lemma wc_abort P st : wc (abort P st).
Proof. intros t x w k Hx Hk. apply find_task_abort in Hx. destruct Hx as [r Hx]. congruence. Qed.

Section Wait.
  Variable P : prog.

  Lemma wc_step_frame t fr sg st : wc st -> wc (fst (step_frame P t fr sg st)).
  Proof.
    apply (inv_step_frame P wc); intros *.
    1-5: apply wc_same; reflexivity.
    - apply wc_wake_all.
    - apply wc_cancel_task.
    -
      unfold wc, spawn. cbn [fst st_tasks st_waiters]. intros H _ t' x w k' Hx Hk. rewrite find_task_app in Hx.
      destruct (find_task t' (st_tasks st0)) as [y|] eqn:F; [inversion Hx; subst; exact (H t' x w k' F Hk)|].
      cbn [find_task t_id] in Hx. destruct (Nat.eqb (st_next st0) t'); [|discriminate]. inversion Hx; subst. discriminate Hk.
  Qed.

  Lemma wc_exec fuel t k sg st : wc st -> wc (exec P fuel t k sg st).
  Proof.
    intros H0. apply (exec_rule P t (fun _ _ s => wc s) wc); [| |exact H0].
    - intros sg' s H. apply wc_unpark; [exact I|exact H].
    - intros fr rest sg' s H. split; [apply wc_abort|].
      pose proof (wc_step_frame t fr sg' s H) as H1.
      destruct (step_frame P t fr sg' s) as [st1 [w k'|k'|k' sg''|sg'']]; cbn [fst] in *; try exact H1.
      + apply wc_suspend. exact H1.
      + apply wc_push_ready. apply wc_unpark; [exact I|exact H1].
  Qed.

  Theorem reachable_wc : forall st, reachable P st -> wc st.
  Proof.
    apply (reachable_inv P wc).
    - intros t x w k Hx Hk. unfold init_state, spawn in Hx. cbn in Hx. destruct t; [|discriminate]. inversion Hx; subst. discriminate Hk.
    - intros st _ H. rewrite loop_step_unfold. destruct (st_ready st) as [|t rest]; [exact H|].
      destruct (find_task t (st_tasks st)) as [x|]; [|apply wc_dequeue; exact H].
      destruct (t_state x) as [k sg|w k|r]; [apply wc_exec, wc_dequeue, H|apply wc_dequeue; exact H|apply wc_dequeue; exact H].
    - intros st g _ H. unfold complete_gate. apply wc_wake_all. exact H.
    - intros st _ H. apply wc_cancel_task. exact H.
  Qed.
End Wait.

(* a notification wakes every task parked on that condition *)
Lemma wait_eqb_refl w : wait_eqb w w = true.
Proof.
  destruct w as [[|k]|k|g]; cbn; rewrite ?key_eqb_refl; try reflexivity.
  destruct g as [i k|i k|ev n m k|n k]; cbn; rewrite ?Nat.eqb_refl, ?key_eqb_refl; try reflexivity.
  destruct ev; destruct n as [x|]; cbn; rewrite ?key_eqb_refl; reflexivity.
Qed.

Lemma wake_all_waiters w sg (st : mstate) :
  st_waiters (wake_all w sg st) = filter (fun p : wait * tid => negb (wait_eqb (fst p) w)) (st_waiters st).
Proof. apply (wake_all_rule (fun s => st_waiters s = _)); auto. Qed.

Lemma nobody_parked_after_wake_all w sg st t x k :
  wc st -> find_task t (st_tasks (wake_all w sg st)) = Some x -> t_state x <> TWait w k.
Proof.
  intros H Hx Hk. pose proof (wc_wake_all w sg st H t x w k Hx Hk) as Hin. rewrite wake_all_waiters in Hin.
  apply filter_In in Hin. destruct Hin as [_ Hin]. cbn in Hin. rewrite wait_eqb_refl in Hin. discriminate Hin.
Qed.

Definition wait_kind_ok (w : wait) (f : frame) : Prop :=
  match f, w with
  | FEmit _ _ _ _ _ true, WGate (GEmit _ _ _ _) => True
  | FSave _ _ true _, WGate (GSave _ _) => True
  | FRetryAfterBody _ _ _, WGate (GBody _ _) => True
  | FRetryAfterSleep _ _ _, WGate (GTimer _ _) => True
  | FRunWait, WCond CRun => True
  | FDagLoop _ (n :: _) _, WCond (CNode n') => n' = n
  | FDagFinal d, WCond (CNode n') => n' = d_dst d
  | FOneOfWait _ _ c _ _, WCond (CNode n') => n' = c
  | FExecDup n, WEvent n' => n' = n
  | _, _ => False
  end.

Definition wk_TP (x : task frame) : Prop :=
  match t_state x with
  | TWait w (f :: _) => wait_kind_ok w f
  | TWait _ [] => False
  | _ => True
  end.
Lemma wk_wake x w k : t_state x = TWait w k -> wk_TP x -> wk_TP (with_ts x (TReady k SGo)). Proof. intros. exact I. Qed.
Lemma wk_cancel_ready x k sg : t_state x = TReady k sg -> wk_TP x -> wk_TP (with_ts x (TReady k (SThrow XCancelled))). Proof. intros. exact I. Qed.
Lemma wk_cancel_wait x w k : t_state x = TWait w k -> wk_TP x -> wk_TP (with_ts x (TReady k (SThrow XCancelled))). Proof. intros. exact I. Qed.
Lemma wk_spawn i nm f : 1 <= i -> spawn_frame f = true -> wk_TP {| t_id := i; t_name := nm; t_state := TReady [f] SGo; t_helper := true |}.
Proof. intros. exact I. Qed.

Section WaitKind.
  Variable P : prog.

  Lemma step_suspend_kind t fr sg st w k' :
    snd (step_frame P t fr sg st) = DSuspend w k' -> exists f r, k' = f :: r /\ wait_kind_ok w f.
  Proof.
    destruct fr; destruct sg; cbn [step_frame]; unfold default_or_raise, reduced; repeat break_match; cbn [snd];
      intros H; try discriminate H; inversion H; subst; do 2 eexists; (split; [reflexivity|cbn; auto]).
  Qed.

  Theorem reachable_wait_kind : forall st, reachable P st -> tasks_ok wk_TP st.
  Proof.
    apply (reachable_inv P (tasks_ok wk_TP)).
    - unfold tasks_ok, init_state. cbn. constructor; [exact I|constructor].
    - intros st Hr H. apply (loop_step_rule P (tasks_ok wk_TP)); [auto| |].
      + intros. apply ok_dequeue. exact H.
      + intros t rest x k sg Hq Hf Ht.
        (* wk_TP reads the state of the task only *)
        apply (exec_tasks_rule P wk_TP wk_wake wk_cancel_ready wk_cancel_wait wk_spawn t
                 (fun ts => wk_TP (with_ts x ts)) (fun _ _ => True) (tasks_ok wk_TP)); auto.
        * intros fr rest' sg' s _. pose proof (step_suspend_kind t fr sg' s) as Hk.
          destruct (snd (step_frame P t fr sg' s)) as [w k'|k'|k' sg''|sg'']; try exact I.
          destruct (Hk w k' eq_refl) as [f [r [-> Hw]]]. exact Hw.
        * intros s. apply ok_abort. intros y k0 _. exact I.
        * exact (reachable_next P st Hr).
    - intros st g _ H. apply (complete_gate_tasks_ok wk_TP wk_wake). exact H.
    - intros st _ H. apply (ok_cancel_task wk_TP wk_cancel_ready wk_cancel_wait). exact H.
  Qed.
End WaitKind.
