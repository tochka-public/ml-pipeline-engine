(* C18: the file store refines a write-once map keyed exactly by (context, node id), for every operation sequence. *)
From Coq Require Import String Ascii.
From MLPE Require Import Base.Util Pure.FsStore Proofs.AssocLemmas.
Local Open Scope list_scope.

Lemma str_eqb_spec a b : str_eqb a b = true <-> a = b.
Proof.
  revert b; induction a as [|x a IH]; intros [|y b]; simpl; try (split; [discriminate|congruence]); [tauto|].
  rewrite andb_true_iff, Nat.eqb_eq, IH. split; [intros [-> ->]; reflexivity|intros H; inversion H; auto].
Qed.

Lemma path_eqb_spec a b : path_eqb a b = true <-> a = b.
Proof.
  destruct a as [c s], b as [c' s']. unfold path_eqb. simpl.
  rewrite andb_true_iff, Nat.eqb_eq, str_eqb_spec. split; [intros [-> ->]; reflexivity|intros H; inversion H; auto].
Qed.

(* facts about the regenerated table: the extensions are non-empty, distinct and contain no dot *)
Definition no_dot (s : str) : bool := forallb (fun c => negb (Nat.eqb c dot)) s.
Lemma exts_ok : forallb (fun f => no_dot (ext f) && negb (str_eqb (ext f) [])) all_fmts = true
                /\ str_eqb (ext FPickle) (ext FJson) = false.
Proof. split; vm_compute; reflexivity. Qed.

Lemma ext_no_dot f : no_dot (ext f) = true.
Proof. destruct f; vm_compute; reflexivity. Qed.

Lemma ext_inj f f' : ext f = ext f' -> f = f'.
Proof. destruct f, f'; try reflexivity; intros E; vm_compute in E; discriminate. Qed.

Lemma after_last_dot_nodot e acc : no_dot e = true -> after_last_dot e acc = acc.
Proof.
  revert acc; induction e as [|c e IH]; intros acc H; simpl; [reflexivity|].
  simpl in H. rewrite andb_true_iff in H. destruct H as [Hc He].
  destruct (Nat.eqb c dot); [discriminate|]. apply IH. exact He.
Qed.

Lemma after_last_dot_app i e acc : no_dot e = true -> after_last_dot (i ++ dot :: e) acc = Some e.
Proof.
  revert acc; induction i as [|c i IH]; intros acc H; simpl.
  - rewrite ?Nat.eqb_refl. apply after_last_dot_nodot. exact H.
  - destruct (Nat.eqb c dot); apply IH; exact H.
Qed.

Lemma suffix_of_fname i f : after_last_dot (fname i f) None = Some (ext f).
Proof. apply after_last_dot_app. apply ext_no_dot. Qed.

(* distinct keys never alias: the file name determines the node id and the format *)
Lemma fname_inj i f i' f' : fname i f = fname i' f' -> i = i' /\ f = f'.
Proof.
  intros E. assert (Ee : ext f = ext f').
  { pose proof (suffix_of_fname i f) as A. pose proof (suffix_of_fname i' f') as B. rewrite E in A. congruence. }
  split; [|apply ext_inj; exact Ee].
  unfold fname in E. rewrite Ee in E. apply app_inv_tail in E. exact E.
Qed.

Lemma fmt_of_ext_ext f : fmt_of_ext (ext f) = Some f.
Proof. destruct f; vm_compute; reflexivity. Qed.

Notation flook := (@alookup path _ path_eqb).

Definition Rel (d : fs) (m : amap) : Prop :=
  forall ctx i,
    match flook (ctx, i) m with
    | Some v => exists f, flook (ctx, fname i f) d = Some (f, v) /\ dump f v = Some (f, v)
                          /\ forall f', f' <> f -> flook (ctx, fname i f') d = None
    | None => forall f, flook (ctx, fname i f) d = None
    end.

Lemma fmt_cases (P : fmt -> Prop) : P FPickle -> P FJson -> forall f, P f.
Proof. intros A B []; assumption. Qed.

Lemma candidates_none d m ctx i : Rel d m -> flook (ctx, i) m = None -> candidates d ctx i = [].
Proof.
  intros HR Hm. specialize (HR ctx i). rewrite Hm in HR. unfold candidates, all_fmts. simpl.
  rewrite (HR FPickle), (HR FJson). reflexivity.
Qed.

Lemma candidates_some d m ctx i v :
  Rel d m -> flook (ctx, i) m = Some v ->
  exists f, candidates d ctx i = [(ctx, fname i f)] /\ flook (ctx, fname i f) d = Some (f, v).
Proof.
  intros HR Hm. specialize (HR ctx i). rewrite Hm in HR. destruct HR as [f [Hf [_ Ho]]].
  exists f. split; [|exact Hf]. unfold candidates, all_fmts. simpl.
  destruct f.
  - rewrite Hf. rewrite (Ho FJson) by discriminate. reflexivity.
  - rewrite (Ho FPickle) by discriminate. rewrite Hf. reflexivity.
Qed.

Lemma dump_shape f v c : dump f v = Some c -> c = (f, v).
Proof. destruct v, f; simpl; intros H; inversion H; reflexivity. Qed.

Lemma key_neq_path (ctx : nat) (i : str) f (ctx' : nat) (i' : str) f' :
  (ctx, i) <> (ctx', i') -> (ctx', fname i' f') <> (ctx, fname i f).
Proof. intros H E. inversion E as [[Ec En]]. apply fname_inj in En. destruct En. subst. apply H. reflexivity. Qed.

Lemma rel_frame d m d' m' ctx i :
  Rel d m ->
  (forall p, (forall f, p <> (ctx, fname i f)) -> flook p d' = flook p d) ->
  (forall k, k <> (ctx, i) -> flook k m' = flook k m) ->
  match flook (ctx, i) m' with
  | Some v => exists f, flook (ctx, fname i f) d' = Some (f, v) /\ dump f v = Some (f, v)
                        /\ forall f', f' <> f -> flook (ctx, fname i f') d' = None
  | None => forall f, flook (ctx, fname i f) d' = None
  end ->
  Rel d' m'.
Proof.
  intros HR Hd Hm Hown ctx' i'. destruct (path_eqb (ctx', i') (ctx, i)) eqn:Ek.
  - apply path_eqb_spec in Ek. inversion Ek; subst ctx' i'. exact Hown.
  - assert (Hne : (ctx', i') <> (ctx, i)) by (intros E; rewrite (proj2 (path_eqb_spec _ _) E) in Ek; discriminate).
    assert (Hp : forall f', flook (ctx', fname i' f') d' = flook (ctx', fname i' f') d).
    { intros f'. apply Hd. intros f. apply key_neq_path. congruence. }
    rewrite (Hm _ Hne). specialize (HR ctx' i'). destruct (flook (ctx', i') m) as [v'|].
    + destruct HR as [f1 [A [B C]]]. exists f1. rewrite Hp. split; [exact A|]. split; [exact B|].
      intros f' Hf'. rewrite Hp. apply C, Hf'.
    + intros f'. rewrite Hp. apply HR.
Qed.

Lemma step_refines d m o :
  Rel d m -> snd (step d o) = snd (astep m o) /\ Rel (fst (step d o)) (fst (astep m o)).
Proof.
  intros HR. destruct o as [ctx i f v | ctx i]; simpl.
  - destruct (flook (ctx, i) m) as [v0|] eqn:Hm.
    + destruct (candidates_some d m ctx i v0 HR Hm) as [f0 [Hc _]]. rewrite Hc. simpl. split; [reflexivity|exact HR].
    + rewrite (candidates_none d m ctx i HR Hm). pose proof (HR ctx i) as Hfree. rewrite Hm in Hfree.
      destruct (dump f v) as [c|] eqn:Hd; simpl; (split; [reflexivity|]); apply (rel_frame d m _ _ ctx i HR).
      * intros p Hp. apply (alookup_aset_other path_eqb path_eqb_spec), Hp.
      * intros k Hk. apply (alookup_aset_other path_eqb path_eqb_spec), Hk.
      * pose proof (dump_shape _ _ _ Hd) as ->. rewrite (alookup_aset_same path_eqb path_eqb_spec). exists f.
        split; [apply (alookup_aset_same path_eqb path_eqb_spec)|]. split; [exact Hd|].
        intros f' Hf'. rewrite (alookup_aset_other path_eqb path_eqb_spec); [apply Hfree|].
        intros E. inversion E as [En]. apply fname_inj in En. destruct En. contradiction.
      * intros p Hp. apply (alookup_aremove_other path_eqb path_eqb_spec), Hp.
      * reflexivity.
      * (* a failed save leaves no trace: the abstract map is unchanged *)
        rewrite Hm. intros f'. destruct (path_eqb (ctx, fname i f') (ctx, fname i f)) eqn:E.
        -- apply path_eqb_spec in E. rewrite E. apply (alookup_aremove_same path_eqb).
        -- rewrite (alookup_aremove_other path_eqb path_eqb_spec); [apply Hfree|].
           intros E'. rewrite (proj2 (path_eqb_spec _ _) E') in E. discriminate.
  - destruct (flook (ctx, i) m) as [v0|] eqn:Hm.
    + destruct (candidates_some d m ctx i v0 HR Hm) as [f0 [Hc Hf]]. rewrite Hc. simpl. rewrite Hf.
      rewrite suffix_of_fname, fmt_of_ext_ext. unfold undump. simpl.
      replace (fmt_eqb f0 f0) with true by (destruct f0; reflexivity). split; [reflexivity|exact HR].
    + rewrite (candidates_none d m ctx i HR Hm). simpl. split; [reflexivity|exact HR].
Qed.

Lemma rel_empty : Rel [] [].
Proof. intros ctx i. simpl. intros f. reflexivity. Qed.

Theorem fsstore_refines_map ops : forall d m,
    Rel d m -> snd (run_ops step d ops) = snd (run_ops astep m ops)
               /\ Rel (fst (run_ops step d ops)) (fst (run_ops astep m ops)).
Proof.
  induction ops as [|o r IH]; intros d m HR; simpl; [split; [reflexivity|exact HR]|].
  destruct (step_refines d m o HR) as [Hres Hrel].
  destruct (step d o) as [d1 x] eqn:Es. destruct (astep m o) as [m1 y] eqn:Ea. simpl in *.
  destruct (IH d1 m1 Hrel) as [H1 H2].
  destruct (run_ops step d1 r) as [d2 xs]. destruct (run_ops astep m1 r) as [m2 ys]. simpl in *.
  split; [congruence|exact H2].
Qed.
