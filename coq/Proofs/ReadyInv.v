(* Ready-queue consistency, for every program and schedule: a task whose state is Ready is in the ready queue, so a
   state with an empty queue has no runnable task (the loop is really idle), and a task that was made ready will run. *)
From MLPE Require Import Engine.Run Proofs.ExecLemmas.

(* every task other than [t] (the one being executed, whose table entry is stale) that is Ready is queued *)
Definition rcx (t : option tid) (st : mstate) : Prop :=
  forall t' x, Some t' <> t -> find_task t' (st_tasks st) = Some x ->
               match t_state x with TReady _ _ => In t' (st_ready st) | _ => True end.

Lemma rcx_mono t st st' : st_tasks st' = st_tasks st -> incl (st_ready st) (st_ready st') -> rcx t st -> rcx t st'.
Proof. unfold rcx. intros -> Hr H t' x Hn Hx. specialize (H t' x Hn Hx). destruct (t_state x); auto. Qed.

(* ts is written into t's entry: fine if t is queued whenever ts is Ready; t itself may have been the exception before *)
Lemma rcx_write t0 t1 t ts st st' :
  st_tasks st' = st_tasks (set_tstate t ts st) -> incl (st_ready st) (st_ready st') ->
  match ts with TReady _ _ => Some t <> t1 -> In t (st_ready st') | _ => True end ->
  t0 = t1 \/ t0 = Some t -> rcx t0 st -> rcx t1 st'.
Proof.
  unfold rcx. intros HT Hr Hq Ht H t' x Hn Hx. rewrite HT in Hx. apply find_set_tstate in Hx.
  destruct Hx as [[-> [y [Hy ->]]]|[Hne Hx]]; [destruct ts; cbn in *; auto|].
  assert (Hn0 : Some t' <> t0) by (destruct Ht as [->| ->]; congruence).
  specialize (H t' x Hn0 Hx). destruct (t_state x); auto.
Qed.

Lemma rcx_ready_push t0 t1 t k sg st :
  t0 = t1 \/ t0 = Some t -> rcx t0 st -> rcx t1 (push_ready t (set_tstate t (TReady k sg) st)).
Proof.
  apply (rcx_write t0 t1 t (TReady k sg) st); [reflexivity|apply incl_appl, incl_refl|]. intros _. apply in_or_app. right. left. reflexivity.
Qed.

Lemma rcx_wake_all t w sg st : rcx t st -> rcx t (wake_all w sg st).
Proof.
  intros H. apply wake_all_rule; [intros; apply (rcx_ready_push t); auto|].
  revert H. apply rcx_mono; [reflexivity|apply incl_refl].
Qed.

Lemma rcx_cancel_task t t' st : rcx t st -> rcx t (cancel_task t' st).
Proof.
  intros H. unfold cancel_task. destruct (find_task t' (st_tasks st)) as [[i nm [k s|w k|r] h]|] eqn:F; try exact H.
  - (* Ready already, so queued already *)
    apply (rcx_write t t t' (TReady k (SThrow XCancelled)) st); auto using incl_refl. intros Hn. exact (H t' _ Hn F).
  - apply (rcx_ready_push t); [auto|]. revert H. apply rcx_mono; [reflexivity|apply incl_refl].
Qed.

Section Ready.
  Variable P : prog.

  Lemma rcx_step_frame t0 t fr sg st : rcx t0 st -> rcx t0 (fst (step_frame P t fr sg st)).
  Proof.
    apply (inv_step_frame P (rcx t0)); intros *.
    1-5: apply rcx_mono; [reflexivity|apply incl_refl].
    - apply rcx_wake_all.
    - apply rcx_cancel_task.
    -
      unfold rcx, spawn. cbn [fst st_tasks st_ready]. intros H _ t' x Hn Hx. rewrite find_task_app in Hx.
      destruct (find_task t' (st_tasks st0)) as [y|] eqn:F.
      + inversion Hx; subst. specialize (H t' x Hn F). destruct (t_state x); try exact I. apply in_or_app. left. exact H.
      + cbn [find_task t_id] in Hx. destruct (Nat.eqb (st_next st0) t') eqn:E; [|discriminate]. inversion Hx; subst. cbn.
        apply in_or_app. right. left. apply Nat.eqb_eq. exact E.
  Qed.

  Lemma rcx_exec fuel t k sg st : rcx (Some t) st -> rcx None (exec P fuel t k sg st).
  Proof.
    intros H0. apply (exec_rule P t (fun _ _ s => rcx (Some t) s) (rcx None)); [| |exact H0].
    - intros sg' s. apply (rcx_write _ _ t (TDone sg') s); auto using incl_refl.
    - intros fr rest sg' s H. split.
      { intros t' x _ Hx. apply find_task_abort in Hx. destruct Hx as [r ->]. exact I. }
      pose proof (rcx_step_frame (Some t) t fr sg' s H) as H1.
      destruct (step_frame P t fr sg' s) as [st1 [w k'|k'|k' sg''|sg'']]; cbn [fst] in *; try exact H1.
      + revert H1. apply (rcx_write _ _ t (TWait w (k' ++ rest)) st1); auto using incl_refl.
      + revert H1. apply rcx_ready_push. auto.
  Qed.

  Lemma rcx_dequeue st t rest : st_ready st = t :: rest -> rcx None st -> rcx (Some t) (dequeue st).
  Proof.
    unfold rcx. intros E H t' x Hn Hx. cbn [dequeue st_tasks st_ready] in *. assert (Hn' : Some t' <> None) by discriminate.
    specialize (H t' x Hn' Hx). rewrite E in *. cbn [tl]. destruct (t_state x); try exact I.
    destruct H as [->|H]; [congruence|exact H].
  Qed.

  Theorem reachable_ready_consistent : forall st, reachable P st -> rcx None st.
  Proof.
    apply (reachable_inv P (rcx None)).
    - intros t' x _ Hx. unfold init_state, spawn in *. cbn in *. destruct t'; [|discriminate]. inversion Hx. cbn. left. reflexivity.
    - intros st _ H. rewrite loop_step_unfold. destruct (st_ready st) as [|t rest] eqn:E; [exact H|].
      pose proof (rcx_dequeue st t rest E H) as Hd.
      (* if the head of the queue is not runnable, nobody is excepted *)
      assert (Hstale : (forall x, find_task t (st_tasks st) = Some x -> match t_state x with TReady _ _ => False | _ => True end) ->
                       rcx None (dequeue st)).
      { intros Hns t' y _ Hy. destruct (Nat.eq_dec t' t) as [->|Hne]; [|apply Hd; [congruence|exact Hy]].
        specialize (Hns y Hy). destruct (t_state y); [contradiction|exact I..]. }
      destruct (find_task t (st_tasks st)) as [x|]; [|apply Hstale; discriminate].
      destruct (t_state x) as [k sg|w k|r] eqn:T; [apply rcx_exec, Hd|apply Hstale; intros y [= <-]; rewrite T; exact I..].
    - intros st g _ H. unfold complete_gate. apply rcx_wake_all. exact H.
    - intros st _ H. apply rcx_cancel_task. exact H.
  Qed.

  Corollary ready_task_not_deadlocked st t x k sg :
    reachable P st -> find_task t (st_tasks st) = Some x -> t_state x = TReady k sg -> deadlocked st = false.
  Proof.
    intros Hr Hx Ht. pose proof (reachable_ready_consistent st Hr t x) as H. rewrite Ht in H.
    assert (Hin : In t (st_ready st)) by (apply H; [discriminate|exact Hx]).
    unfold deadlocked. destruct (st_ready st); [contradiction|reflexivity].
  Qed.
End Ready.
