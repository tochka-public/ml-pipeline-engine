(* ALL programs, every schedule: every body invocation belongs to an execution of its node that has begun (C04): in the history,
   a body invocation of node n is preceded by the marking of n as processed (the ghost event OProcessed emitted where
   _execute_node sets the mark). *)
From MLPE Require Import Engine.Run Proofs.ExecLemmas Proofs.Micro Proofs.PlainLive Proofs.PlainCore Proofs.PlainNodeStart Proofs.StackAll.

Definition exec_of (f : frame) : option key :=
  match f with FExecAfterStart _ n _ | FExecAfterBody _ n => Some n | _ => None end.

Section ProcAll.
  Variable P : prog.

  Definition begun (tr : list obs) (k : list frame) : Prop := forall f n, In f k -> exec_of f = Some n -> In (OProcessed n) tr.

  Lemma step_exec_origin t fr sg st f n :
    In f (dir_frames (snd (step_frame P t fr sg st))) -> exec_of f = Some n ->
    exec_of fr = Some n \/ In (OProcessed n) (st_trace (fst (step_frame P t fr sg st))).
  Proof.
    step_cases; unfold emit_frames; cbn [snd fst dir_frames]; intros Hin Hs;
      repeat (destruct Hin as [Hin|Hin]; [subst f; cbn [exec_of] in Hs; try discriminate Hs; inversion Hs; subst;
                                          first [left; reflexivity | right; cbn [st_trace emit_obs with_store]; left; reflexivity]|]); try contradiction.
  Qed.

  Definition bg_TP (tr : list obs) (x : task frame) : Prop := begun tr (estack (t_state x)).

  (* the shape facts of Proofs/PlainNodeStart.v alone (no assumption on the managers) *)
  Definition shp (k : list frame) : Prop := pairsS k = true /\ botS k = true.
  Definition sh_TP (x : task frame) : Prop := shp (estack (t_state x)).

  Theorem creach_shape : forall st c, creach P st c -> tasks_ok sh_TP st /\ (match c with Some (_, k, _) => shp k | None => True end).
  Proof.
    intros st c Hc. destruct (creach_stack_inv P (fun _ => shp) (fun _ => True)) with (st := st) (c := c) as (A & B & _); auto; try (split; reflexivity).
    intros st0 t fr rest sg _ (Bp & Bb) _. destruct (step_pairsS_all P t fr sg st0) as (Hp1 & Hp2 & Hp3 & Hp4).
    split; [intros f Hs; apply spawns_spawn_frame in Hs; destruct f; try discriminate Hs; split; reflexivity|]. split; [|exact I].
    destruct (dir_frames (snd (step_frame P t fr sg st0))) as [|f1 k'] eqn:E.
    - split; [exact (pairsS_tail _ _ Bp)|exact (botS_tail _ _ Bb)].
    - rewrite <- E in *. split; [apply (pairsS_app fr); assumption|apply (botS_app fr); [assumption|rewrite E; discriminate|assumption]].
  Qed.

  Definition body_after_mark (tr : list obs) : Prop :=
    forall a b i k kw, tr = a ++ OStart i k kw :: b -> exists n, real_index n = i /\ In (OProcessed n) b.

  Theorem creach_body_after_mark : forall st c, creach P st c ->
    tasks_ok (bg_TP (st_trace st)) st /\ (match c with Some (_, k, _) => begun (st_trace st) k | None => True end)
    /\ body_after_mark (st_trace st).
  Proof.
    set (Q := fun o b => match o with OStart i _ _ => exists n, real_index n = i /\ In (OProcessed n) b | _ => True end).
    intros st c Hc.
    destruct (creach_frames_inv P (fun tr f => forall n, exec_of f = Some n -> In (OProcessed n) tr) (after_each Q)) with (st := st) (c := c)
      as (A & B & C); auto.
    - intros new tr f Hf n Hn. apply in_or_app. right. exact (Hf n Hn).
    - intros n Hn. discriminate Hn.
    - apply after_each_one. exact I.
    - intros st0 t fr rest sg Hc0 B C. destruct (step_obs P t fr sg st0) as [new [Etr Hnew]]. split.
      + intros f [Hs|Hin] n Hn; [apply spawns_spawn_frame in Hs; destruct f; discriminate|].
        destruct (step_exec_origin t fr sg st0 f n Hin Hn) as [Hfr|Hin']; [|exact Hin'].
        rewrite Etr. apply in_or_app. right. exact (B fr (or_introl eq_refl) n Hfr).
      + rewrite Etr. apply after_each_app; [|exact C|].
        * intros [] b b'; cbn [Q]; auto. intros [n [E Hn]]. exists n. split; [exact E|apply in_or_app; right; exact Hn].
        * (* a body is invoked from the retry loop, which sits on the frame of its execution *)
          intros o Ho. specialize (Hnew o Ho). destruct o; try exact I. destruct Hnew as [att [-> _]].
          destruct (creach_shape _ _ Hc0) as (_ & (Bp & Bb)).
          destruct rest as [|g r]; [discriminate Bb|]. pose proof (pairsS_head _ _ _ Bp) as Hadj. unfold adjS in Hadj. cbn [is_retry_frame] in Hadj.
          apply andb_true_iff in Hadj. destruct Hadj as [_ Hadj]. destruct g; try discriminate Hadj. apply Nat.eqb_eq in Hadj.
          exists n. split; [symmetry; exact Hadj|]. apply (B (FExecAfterBody d n)); [right; left; reflexivity|reflexivity].
    - split; [unfold tasks_ok in *; eapply Forall_impl; [|exact A]; intros x Hx f n Hf Hn; exact (Hx f Hf n Hn)|].
      split; [destruct c as [[[t k] sg]|]; [intros f n Hf Hn; exact (B f Hf n Hn)|exact I]|].
      intros a b i k kw E. exact (C a _ b E).
  Qed.
End ProcAll.

Theorem every_body_invocation_belongs_to_a_begun_execution P :
  forall st, reachable P st -> forall a b i k kw, st_trace st = a ++ OStart i k kw :: b -> exists n, real_index n = i /\ In (OProcessed n) b.
Proof. intros st Hr. destruct (creach_body_after_mark P st None (reachable_creach P st Hr)) as (_ & _ & C). exact C. Qed.
