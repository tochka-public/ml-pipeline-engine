(* ALL programs, every schedule: the candidates of a one-of are tried in declared order, one at a time, a candidate only after
   every earlier one has failed, and the result of the one-of is the value of a candidate whose predecessors all failed -- or the
   documented "no result" error when all of them did (C10). *)
From MLPE Require Import Engine.Run Proofs.ExecLemmas Proofs.Evolve Proofs.Micro Proofs.PlainLive Proofs.PlainCore Proofs.StackAll Proofs.ValuesAll
     Proofs.StoreAll.

(* switch frames carry switch nodes *)
Section SwitchKeys.
  Variable P : prog.
  Notation G := (b_graph (build (p_decls P) (p_inp P) (p_out P))).

  Definition swf (f : frame) : bool := match f with FSwitchStart _ n => is_switch G n | _ => true end.
  Definition sw_TP (x : task frame) : Prop := forall f, In f (estack (t_state x)) -> swf f = true.

  Lemma step_sw_frames t fr sg st : forallb swf (dir_frames (snd (step_frame P t fr sg st))) = true.
  Proof. destruct (step_pushes P t fr sg st) as [[s' ->]|Hp]; [reflexivity|]. destruct Hp; reflexivity. Qed.

  Theorem creach_switch_keys : forall st c, creach P st c ->
    tasks_ok sw_TP st /\ (match c with Some (_, k, _) => forall f, In f k -> swf f = true | None => True end).
  Proof.
    intros st c Hc. destruct (creach_frames_inv P (fun _ f => swf f = true) (fun _ => True)) with (st := st) (c := c) as (A & B & _); auto.
    intros st0 t fr rest sg _ _ _. split; [|exact I].
    intros f [Hs|Hin]; [|exact (proj1 (forallb_forall _ _) (step_sw_frames t fr sg st0) f Hin)].
    destruct f; cbn [spawns] in Hs; try contradiction; try reflexivity. destruct Hs as (r & l & _ & Hs). exact Hs.
  Qed.
End SwitchKeys.

(* node frames carry nodes that are not one-of heads, one-of frames carry heads (no hypothesis on the managers) *)
Section KeyKindsInv.
  Variable P : prog.
  Definition kk_TP (x : task frame) : Prop := forall f, In f (estack (t_state x)) -> kf P f = true.

  Theorem creach_key_kinds : forall st c, creach P st c ->
    tasks_ok kk_TP st /\ (match c with Some (_, k, _) => forall f, In f k -> kf P f = true | None => True end).
  Proof.
    intros st c Hc. destruct (creach_frames_inv P (fun _ f => kf P f = true) (fun _ => True)) with (st := st) (c := c) as (A & B & _); auto.
    intros st0 t fr rest sg _ B _. specialize (B fr (or_introl eq_refl)). split; [|exact I].
    intros f [Hs|Hin]; [exact (spawn_kf P fr sg f B Hs)|exact (proj1 (forallb_forall _ _) (step_kk_frames P t fr sg st0 B) f Hin)].
  Qed.
End KeyKindsInv.

Section OneOf.
  Variable P : prog.
  Notation G := (b_graph (build (p_decls P) (p_inp P) (p_out P))).
  Notation inp := (b_input (build (p_decls P) (p_inp P) (p_out P))).

  Definition cands (h : key) : list key := na_cands (nattr_of G h).
  (* the sub-pipeline of candidate c: what _run_oneof hands to _run_dag *)
  Definition cand_dag (c : key) : rdag := snd (reduced P init_state inp c true true).
  Definition failed (tr : list obs) (c : key) : Prop :=
    exists k e, In k (d_nodes (cand_dag c)) /\ In (OSetResult k (VExn e)) tr.
  Definition all_failed (tr : list obs) (l : list key) : Prop := forall c, In c l -> failed tr c.

  Lemma failed_mono new tr c : failed tr c -> failed (new ++ tr) c.
  Proof. intros [k [e [A B]]]. exists k, e. split; [exact A|]. apply in_or_app. right. exact B. Qed.
  Lemma all_failed_mono new tr l : all_failed tr l -> all_failed (new ++ tr) l.
  Proof. intros H c Hc. apply failed_mono. exact (H c Hc). Qed.

  Definition oo (tr : list obs) (f : frame) : Prop :=
    match f with
    | FOneOfLoop _ h l => exists pre, cands h = pre ++ l /\ all_failed tr pre
    | FOneOfWait _ h c od rest => od = cand_dag c /\ exists pre, cands h = pre ++ c :: rest /\ all_failed tr pre
    | _ => True
    end.
  Definition stack_oo (tr : list obs) (k : list frame) : Prop := forall f, In f k -> oo tr f.
  Definition oo_TP (tr : list obs) (x : task frame) : Prop := stack_oo tr (estack (t_state x)).

  Lemma oo_mono new tr f : oo tr f -> oo (new ++ tr) f.
  Proof.
    destruct f; cbn [oo]; try (intros; exact I).
    - intros [pre [A B]]. exists pre. split; [exact A|apply all_failed_mono; exact B].
    - intros [E [pre [A B]]]. split; [exact E|]. exists pre. split; [exact A|apply all_failed_mono; exact B].
  Qed.
  Lemma has_error_failed st od :
    Istore st -> has_subgraph_error (st_store st) od = true ->
    exists k e, In k (d_nodes od) /\ In (OSetResult k (VExn e)) (st_trace st).
  Proof.
    intros HI H. unfold has_subgraph_error in H. apply existsb_exists in H. destruct H as [k [Hk He]].
    unfold exists_error, get_result_opt in He. cbn [negb andb] in He.
    destruct (mem key_eqb k (s_res_hidden (st_store st))); [discriminate He|].
    destruct (alookup key_eqb k (s_results (st_store st))) as [v|] eqn:El; [|discriminate He].
    destruct v; try discriminate He. exists k, e. split; [exact Hk|]. apply HI. exact El.
  Qed.

  Lemma step_oo_frames t fr sg st f :
    Istore st -> oo (st_trace st) fr -> In f (dir_frames (snd (step_frame P t fr sg st))) ->
    oo (st_trace (fst (step_frame P t fr sg st))) f.
  Proof.
    intros HI Hfr Hin. destruct (ev_trace _ _ (ev_step_frame P t fr sg st)) as [new ->]. apply oo_mono.
    destruct (step_pushed P t fr sg st f Hin) as [k' [Hp Hf]].
    destruct Hp; cbn [In] in Hf; repeat (destruct Hf as [<-|Hf]); try contradiction; try exact I; try exact Hfr; cbn [oo] in *.
    - (* the candidate's sub-pipeline does not depend on the state *)
      split; [subst od; unfold cand_dag, reduced; reflexivity|exact Hfr].
    - (* the candidate has failed: the next one is tried *)
      destruct Hfr as [E [pre [A B]]]. exists (pre ++ [c]). split; [rewrite <- app_assoc; exact A|].
      intros c' Hc'. apply in_app_or in Hc'. destruct Hc' as [Hc'|[<-|[]]]; [exact (B c' Hc')|]. subst od. exact (has_error_failed st _ HI H).
  Qed.
End OneOf.

Section OneOfHistory.
  Variable P : prog.
  Notation G := (b_graph (build (p_decls P) (p_inp P) (p_out P))).

  (* the storing of the result of a one-of, and the launch of a candidate's sub-pipeline *)
  Definition is_oo_event (o : obs) : bool :=
    match o with
    | OSetResult n _ => is_head G n && negb (is_switch G n)
    | OSpawn _ (TNDag _ _) => true
    | _ => false
    end.
  Notation bad := is_oo_event.

  Definition noresult (h : key) : value := VExn (XEng EOneOfNoResult h).
  Definition ev_ok (o : obs) (b : list obs) : Prop :=
    match o with
    | OSetResult h v =>
      (v = noresult h /\ all_failed P b (cands P h)) \/
      (exists pre c rest, cands P h = pre ++ c :: rest /\ In (OSetResult c v) b /\ all_failed P b pre)
    | OSpawn _ (TNDag _ c) =>
      exists h pre rest, is_head G h = true /\ cands P h = pre ++ c :: rest /\ all_failed P b pre
    | _ => True
    end.
  Definition hist_ok (tr : list obs) : Prop := forall a o b, tr = a ++ o :: b -> bad o = true -> ev_ok o b.

  Theorem creach_oneof : forall st c, creach P st c ->
    tasks_ok (oo_TP P (st_trace st)) st /\
    (match c with Some (_, k, _) => stack_oo P (st_trace st) k | None => True end) /\
    hist_ok (st_trace st).
  Proof.
    set (Q := fun o b => bad o = true -> ev_ok o b).
    intros st c Hc. destruct (creach_frames_inv P (oo P) (after_each Q)) with (st := st) (c := c) as (A & B & C); try assumption.
    - intros new tr f. apply oo_mono.
    - exact I.
    - apply after_each_one. intros Hb. discriminate Hb.
    - intros st0 t fr rest sg Hc0 B C. specialize (B fr (or_introl eq_refl)).
      pose proof (creach_store P _ _ Hc0) as HI.
      destruct (creach_key_kinds P _ _ Hc0) as (_ & Hkf). specialize (Hkf fr (or_introl eq_refl)).
      destruct (creach_switch_keys P _ _ Hc0) as (_ & Hsw). specialize (Hsw fr (or_introl eq_refl)).
      destruct (step_obs P t fr sg st0) as [new [Etr Hnew]]. split.
      + (* a task that runs a one-of starts with the full candidate list: nothing tried yet *)
        intros f [Hs|Hin]; [|exact (step_oo_frames P t fr sg st0 f HI B Hin)].
        destruct f; cbn [spawns] in Hs; try contradiction; try exact I. destruct Hs as (r & l & _ & _ & _ & ->). exists []. split; [reflexivity|intros c0 []].
      + rewrite Etr. apply after_each_app; [|exact C|].
        * intros o b b' Hb Ho. specialize (Hb Ho). destruct o; try exact I; cbn [ev_ok] in *.
          -- destruct Hb as [[E Hf]|[pre [c0 [rs (E & Hi & Hf)]]]]; [left; split; [exact E|apply all_failed_mono; exact Hf]|].
             right. exists pre, c0, rs. split; [exact E|]. split; [apply in_or_app; right; exact Hi|apply all_failed_mono; exact Hf].
          -- destruct nm; try exact I. destruct Hb as [h [pre [rs (Hh & E & Hf)]]]. exists h, pre, rs. split; [exact Hh|]. split; [exact E|apply all_failed_mono; exact Hf].
        * intros o Ho Hb. specialize (Hnew o Ho). unfold kf, nhf in Hkf. destruct o; try discriminate Hb; cbn [is_oo_event ev_ok obs_origin] in *.
          -- (* the result of a one-of head: stored by _run_oneof only *)
             apply andb_true_iff in Hb. destruct Hb as [Hh Hs]. apply negb_true_iff in Hs.
             destruct Hnew as [[d [-> _]]|[[d [c0 [od [r (-> & -> & Hex)]]]]|[[d [-> ->]]|[[d [-> _]]|[d [s [rsub [res [-> _]]]]]]]]];
               cbn [node_of head_of swf] in *; try (rewrite Hh in Hkf; discriminate Hkf); try (rewrite Hs in Hsw; discriminate Hsw).
             ++ right. destruct B as [_ [pre [Ec Hp]]]. exists pre, c0, r. split; [exact Ec|]. split; [|exact Hp].
                apply HI. apply exists_result_lookup. exact Hex.
             ++ left. split; [reflexivity|]. destruct B as [pre [Ec Hp]]. rewrite app_nil_r in Ec. rewrite Ec. exact Hp.
          -- destruct nm; try discriminate Hb. destruct Hnew as [_ [d [h [r ->]]]]. cbn [oo head_of] in *. destruct B as [pre [Ec Hp]].
             exists h, pre, r. split; [|split; [exact Ec|exact Hp]]. exact (proj2 (proj1 (andb_true_iff _ _) Hkf)).
    - split; [exact A|]. split; [exact B|]. intros a o b E Hb. exact (C a o b E Hb).
  Qed.
End OneOfHistory.

(* [cands P h]: the candidates of the one-of h in declared order; [failed P b c]: in the history b some node of the sub-pipeline of
   candidate c has stored a failure; the history is newest first: in [a ++ o :: b], b is what happened before o *)
Theorem oneof_result_is_the_first_successful_candidate_all_programs P :
  forall st, reachable P st ->
    forall a b h v, st_trace st = a ++ OSetResult h v :: b ->
      is_head (b_graph (build (p_decls P) (p_inp P) (p_out P))) h = true ->
      is_switch (b_graph (build (p_decls P) (p_inp P) (p_out P))) h = false ->
      (v = noresult h /\ all_failed P b (cands P h)) \/
      (exists pre c rest, cands P h = pre ++ c :: rest /\ In (OSetResult c v) b /\ all_failed P b pre).
Proof.
  intros st Hr a b h v E Hh Hs. destruct (creach_oneof P st None (reachable_creach P st Hr)) as (_ & _ & Hh1).
  apply (Hh1 a (OSetResult h v) b E). cbn [is_oo_event]. rewrite Hh, Hs. reflexivity.
Qed.

Theorem oneof_candidates_are_tried_in_order_all_programs P :
  forall st, reachable P st ->
    forall a b t s c, st_trace st = a ++ OSpawn t (TNDag s c) :: b ->
      exists h pre rest, is_head (b_graph (build (p_decls P) (p_inp P) (p_out P))) h = true /\
                         cands P h = pre ++ c :: rest /\ all_failed P b pre.
Proof.
  intros st Hr a b t s c E. destruct (creach_oneof P st None (reachable_creach P st Hr)) as (_ & _ & Hh1).
  exact (Hh1 a (OSpawn t (TNDag s c)) b E eq_refl).
Qed.

(* at any moment a one-of is at exactly one position of its candidate list, everything before that position has failed *)
Theorem oneof_position_all_programs P :
  forall st x f, reachable P st -> In x (st_tasks st) -> In f (estack (t_state x)) -> oo P (st_trace st) f.
Proof.
  intros st x f Hr Hx Hf. destruct (creach_oneof P st None (reachable_creach P st Hr)) as (A & _ & _).
  unfold tasks_ok in A. rewrite Forall_forall in A. exact (A x Hx f Hf).
Qed.
