(* ALL programs, every schedule incl. cancellation, event managers that do not raise: on_pipeline_complete comes after everything
   else (C14).  Once the chart task has left manager.run() (or failed before entering it) every helper task is finished or is
   unwinding a CancelledError, and such a task adds nothing to the history; so from the first on_pipeline_complete callback on,
   the history grows by on_pipeline_complete callbacks only.
   The statement for plain programs is a special case.
   Also: a claim about the state of the chart task, indexed by the history, holds at every configuration if every step the chart
   task can make preserves it (creach_chart_inv). *)
Require Import Lia.
From MLPE Require Import Engine.Run Proofs.ExecLemmas Proofs.Evolve Proofs.StackInv Proofs.CancelProofs Proofs.Micro Proofs.PlainLive Proofs.PlainCore Proofs.PlainInv
     Proofs.PlainExec Proofs.PlainPipe Proofs.StackAll.

Definition before_run (k : list frame) : bool :=
  match k with FChartStart :: _ | FEmit EvPipelineStart _ _ _ _ _ :: _ | FChartAfterStart :: _ => true | _ => false end.
Definition after_run (k : list frame) : bool :=
  match k with
  | FChartAfterRun :: _ | FChartAfterEmitOk _ :: _ | FChartAfterEmitErr _ :: _ | FEmit EvPipelineComplete _ _ _ _ _ :: _ => true
  | _ => false
  end.
(* 0: before manager.run(); 1: inside; 2: after (or ended) *)
Definition phase_of_stack (k : list frame) : nat := if before_run k then 0 else if after_run k then 2 else 1.
Definition phase_of_state (ts : tstate frame) : nat := match ts with TDone _ => 2 | TReady k _ | TWait _ k => phase_of_stack k end.

Definition is_pc_any (o : obs) : bool := match o with OEmit _ EvPipelineComplete _ _ _ => true | _ => false end.

Definition stack_of (ts : tstate frame) : option (list frame) := match ts with TReady k _ | TWait _ k => Some k | TDone _ => None end.
Definition phase_of (o : option (list frame)) : nat := match o with Some k => phase_of_stack k | None => 2 end.
Lemma phase_of_state_stack ts : phase_of_state ts = phase_of (stack_of ts).
Proof. destruct ts; reflexivity. Qed.

Definition stack_is (k0 : option (list frame)) (ts : tstate frame) : Prop := stack_of ts = k0.

Section Unwinding.
  Variable P : prog.

  Lemma unwind_trace t fr st : helper_frame fr = true -> st_trace (fst (step_frame P t fr (SThrow XCancelled) st)) = st_trace st.
  Proof.
    intros Hf. destruct fr; try discriminate Hf; cbn [step_frame is_Exception]; repeat break_match; cbn [fst]; unfold finally_a; autorewrite with core; reflexivity.
  Qed.
End Unwinding.

Section ChartTask.
  Variable P : prog.
  Hypothesis Hnf : forall m ev n k, p_mgr_fault P m ev n k = false.
  Variable Claim : list obs -> tstate frame -> Prop.
  Hypothesis Claim_mono : forall new tr ts, Claim tr ts -> Claim (new ++ tr) ts.
  Hypothesis Claim_wake : forall tr w k, Claim tr (TWait w k) -> Claim tr (TReady k SGo).
  Hypothesis Claim_cancel_ready : forall tr k sg, Claim tr (TReady k sg) -> Claim tr (TReady k (SThrow XCancelled)).
  Hypothesis Claim_cancel_wait : forall tr w k, Claim tr (TWait w k) -> Claim tr (TReady k (SThrow XCancelled)).
  Hypothesis Claim_abort : forall tr k, Claim tr (TDone (SThrow (XEng EOutOfFuel k))).
  Hypothesis Claim_init : Claim (st_trace init_state) (TReady [FChartStart] SGo).
  Hypothesis Claim_step : forall js jc pay fr rest sg st, creach P st (Some (main_tid, fr :: rest, sg)) ->
    main_ok P js jc pay (TReady (fr :: rest) sg) -> handled fr sg = true -> Claim (st_trace st) (TReady (fr :: rest) sg) ->
    Claim (st_trace (fst (step_frame P main_tid fr sg st))) (nstate rest (snd (step_frame P main_tid fr sg st))).

  Theorem creach_chart_inv : forall st c, creach P st c ->
    tasks_ok (fun x => t_id x = main_tid -> Claim (st_trace st) (t_state x)) st /\
    match c with Some (t, k, sg) => t = main_tid -> Claim (st_trace st) (cstate k sg) | None => True end.
  Proof.
    intros st c Hc.
    destruct (creach_tstate_inv P (fun tr i ts => i = main_tid -> Claim tr ts) (fun _ => True)) with (st := st) (c := c) as (A & B & _); try assumption; try (intros; exact I); try (split; assumption).
    - intros new tr i ts Hts Hi. exact (Claim_mono _ _ _ (Hts Hi)).
    - intros tr i w k Hts Hi. exact (Claim_wake _ _ _ (Hts Hi)).
    - intros tr i k sg Hts Hi. exact (Claim_cancel_ready _ _ _ (Hts Hi)).
    - intros tr i w k Hts Hi. exact (Claim_cancel_wait _ _ _ (Hts Hi)).
    - intros tr i k _. apply Claim_abort.
    - intros _. exact Claim_init.
    - (* a task in the table has a frame to resume *)
      intros st0 t x sg Hc0 Hf Ht _ _. exfalso. destruct (find_task_in _ _ _ Hf) as [Hin _].
      destruct (creach_stacks P _ _ Hc0) as [Hs _]. unfold stacks_ok, tasks_ok in Hs. rewrite Forall_forall in Hs.
      destruct (Hs x Hin) as [_ Hx]. rewrite Ht in Hx. destruct Hx as [[Hk _] _]. exact (Hk eq_refl).
    - intros st0 t fr rest sg Hc0 _ B _. split; [intros i f Hi _ Hm; unfold main_tid in Hm; lia|]. split; [|exact I]. intros ->.
      destruct (creach_pipeline_inv P Hnf _ _ Hc0) as [js [jc [pay [_ HT]]]]. cbn [chart_is Nat.eqb main_tid cstate] in HT. destruct HT as [HM Hty].
      exact (Claim_step js jc pay fr rest sg st0 Hc0 HM Hty (B eq_refl)).
  Qed.

  Corollary reachable_chart_inv st ts : reachable P st -> main_state st = Some ts -> Claim (st_trace st) ts.
  Proof.
    intros Hr Hm. destruct (creach_chart_inv st None (reachable_creach P st Hr)) as [HT _].
    unfold main_state in Hm. destruct (find_task main_tid (st_tasks st)) as [x|] eqn:F; [|discriminate Hm]. cbn in Hm. inversion Hm; subst ts.
    destruct (find_task_in _ _ _ F) as [Hin Hid]. unfold tasks_ok in HT. rewrite Forall_forall in HT. exact (HT x Hin Hid).
  Qed.
End ChartTask.

(* a helper task that is unwinding a CancelledError: the error is pending, or the `return` in a `finally` has swallowed it and
   the value meets the last frame (or nothing) *)
Definition unwinding (k : list frame) (sg : signal) : Prop :=
  sg = SThrow XCancelled \/ ((exists v, sg = SVal v) /\ (k = [] \/ exists s n, k = [FRecAfterDefault s n])).
Definition helpers_quiet (st : mstate) (c : running) : Prop :=
  all_cancelled st /\ match c with Some (t, k, sg) => t <> main_tid -> unwinding k sg | None => True end.

Section Quiet.
  Variable P : prog.
  Hypothesis Hnf : forall m ev n k, p_mgr_fault P m ev n k = false.

  Lemma main_step_phase js jc pay t fr rest sg st :
    main_ok P js jc pay (TReady (fr :: rest) sg) -> handled fr sg = true ->
    (phase_of_state (nstate rest (snd (step_frame P t fr sg st))) = 0 -> phase_of_stack (fr :: rest) = 0 /\ st_next (fst (step_frame P t fr sg st)) = st_next st) /\
    (phase_of_state (nstate rest (snd (step_frame P t fr sg st))) = 2 ->
       (phase_of_stack (fr :: rest) <> 1 /\ st_next (fst (step_frame P t fr sg st)) = st_next st
        /\ (forall TP : task frame -> Prop, (forall x w k, t_state x = TWait w k -> TP x -> TP (with_ts x (TReady k SGo))) ->
                       tasks_ok TP st -> tasks_ok TP (fst (step_frame P t fr sg st)))) \/
       (fr = FRunWait /\ leaves_run fr sg (snd (step_frame P t fr sg st)) = true)).
  Proof.
    intros [Hnr H] Hh. cbn [main_ok] in *. chart_step_cases mk H Hnr Hh sg;
      cbn [fst snd nstate app phase_of_state phase_of_stack before_run after_run leaves_run emit_frames];
      (split; intros Hx; try discriminate Hx;
       first [ split; reflexivity
             | left; split; [intros Hc; discriminate Hc|split; [reflexivity|intros TP Hw HT; repeat first [assumption | apply ok_emit_obs | apply ok_bump]]]
             | right; split; reflexivity ]).
  Qed.

  Lemma run_leave_cancelled t sg st :
    NoDup (map (@t_id frame) (st_tasks st)) -> stacks_ok st ->
    leaves_run FRunWait sg (snd (step_frame P t FRunWait sg st)) = true -> all_cancelled (fst (step_frame P t FRunWait sg st)).
  Proof.
    intros Hnd Hs. destruct sg; cbn [step_frame]; repeat break_match; cbn [fst snd leaves_run]; intros Hl; try discriminate Hl;
      apply cancel_all_helpers; assumption.
  Qed.

  Lemma only_main_cancelled st : evolves (init_state) st -> st_next st = 1 -> all_cancelled st.
  Proof.
    intros He Hn. unfold all_cancelled, tasks_ok. rewrite Forall_forall. intros x Hx Hid. exfalso.
    pose proof (evolves_ids st He x Hx) as Hlt. unfold main_tid in Hid. lia.
  Qed.

  Lemma find_main st : evolves (init_state) st -> exists xm, find_task main_tid (st_tasks st) = Some xm /\ In xm (st_tasks st) /\ t_id xm = main_tid.
  Proof.
    intros He. destruct (evolved_shape st He) as [x [rest [T [Hid _]]]]. exists x.
    assert (F : find_task main_tid (st_tasks st) = Some x) by (rewrite T; cbn [find_task]; rewrite Hid; reflexivity).
    split; [exact F|]. destruct (find_task_in _ _ _ F) as [Hin _]. split; [exact Hin|exact Hid].
  Qed.

  Lemma phase_cases k : phase_of_stack k = 0 \/ phase_of_stack k = 1 \/ phase_of_stack k = 2.
  Proof. unfold phase_of_stack. destruct (before_run k); [auto|]. destruct (after_run k); auto. Qed.

  (* with the chart task's stack k0: before manager.run() there is no other task; after it the helpers are quiet *)
  Definition quiet_inv (st : mstate) (c : running) : Prop :=
    exists k0, chart_is (stack_is k0) st c /\ (phase_of k0 = 0 -> st_next st = 1) /\ (phase_of k0 = 2 -> helpers_quiet st c).

  Lemma cancelled_sig st x k sg : all_cancelled st -> In x (st_tasks st) -> t_id x <> main_tid -> t_state x = TReady k sg -> sg = SThrow XCancelled.
  Proof.
    intros Ha Hin Hid Hs. unfold all_cancelled, tasks_ok in Ha. rewrite Forall_forall in Ha. specialize (Ha x Hin Hid). rewrite Hs in Ha.
    destruct sg; try contradiction. destruct e; try contradiction. reflexivity.
  Qed.

  Lemma all_cancelled_set_main ts st : all_cancelled st -> all_cancelled (set_tstate main_tid ts st).
  Proof. intros H. apply ok_set_tstate; [exact H|]. intros y Hy _ Hc. cbn in Hc. destruct (find_task_in _ _ _ Hy) as [_ Hiy]. contradiction. Qed.

  Theorem creach_quiet_inv : forall st c, creach P st c -> quiet_inv st c.
  Proof.
    intros st c H.
    induction H as [|st t rest x k sg H IH Hq Hf Ht|st t rest H IH Hq|st t fr rest sg H IH|st t sg H IH|st c H IH|st g H IH|st H IH];
      try (pose proof (creach_evolves P _ _ H) as Hev; destruct IH as [k0 [HT [A0 A2]]]).
    - exists (Some [FChartStart]). split; [constructor; [intros _; reflexivity|constructor]|]. split; [reflexivity|intros Hx; discriminate Hx].
    - exists k0. split; [apply (chart_dequeue P _ st t x); assumption|]. split; [exact A0|]. intros Hp. destruct (A2 Hp) as [Q1 _]. split; [exact Q1|].
      intros Hne. left. destruct (find_task_in _ _ _ Hf) as [Hin Hid]. rewrite <- Hid in Hne. exact (cancelled_sig st x k sg Q1 Hin Hne Ht).
    - exists k0. split; [exact HT|]. split; [exact A0|]. intros Hp. destruct (A2 Hp) as [Q1 _]. split; [exact Q1|exact I].
    -
      pose proof (evolves_trans _ _ _ Hev (ev_step_frame P t fr sg st)) as Hev1.
      destruct (creach_stacks P _ _ H) as [Hstk Hcur]. cbn [cur_chain] in Hcur. destruct Hcur as [Hcur|[Hch _]]; [discriminate Hcur|].
      unfold quiet_inv. rewrite (sc_next _ _ (sc_after_step t rest _)). destruct (Nat.eqb_spec t main_tid) as [->|Hne].
      +
        cbn [chart_is Nat.eqb main_tid cstate] in HT. unfold stack_is in HT. cbn [stack_of] in HT. subst k0. cbn [phase_of] in A0, A2.
        destruct (creach_pipeline_inv P Hnf _ _ H) as [js [jc [pay [_ [HM Hty]]]]]. cbn [cstate expects] in HM, Hty.
        destruct (main_step_phase js jc pay main_tid fr rest sg st HM Hty) as [B0 B2].
        exists (stack_of (nstate rest (snd (step_frame P main_tid fr sg st)))). rewrite <- phase_of_state_stack.
        split; [apply chart_step_main; [exact Hev1|reflexivity]|]. split.
        * intros Hp. destruct (B0 Hp) as [Hp0 Hc]. rewrite Hc. exact (A0 Hp0).
        * intros Hp.
          assert (Hall : all_cancelled (fst (step_frame P main_tid fr sg st))).
          { destruct (B2 Hp) as [[Hp1 [Hc Hpres]]|[-> Hl]].
            - destruct (phase_cases (fr :: rest)) as [E|[E|E]]; [|contradiction|].
              + apply only_main_cancelled; [exact Hev1|]. rewrite Hc. exact (A0 E).
              + destruct (A2 E) as [Q1 _]. exact (Hpres cancelled_TP cancelled_wake Q1).
            - destruct (evolved_shape _ Hev) as [xa [ra [_ [_ [_ [_ [Hnd _]]]]]]].
              apply run_leave_cancelled; [exact Hnd|exact Hstk|exact Hl]. }
          destruct (step_frame P main_tid fr sg st) as [st1 [w k'|k'|k' sg'|sg']]; cbn [after_step fst snd helpers_quiet] in *.
          -- split; [|exact I]. exact (all_cancelled_set_main _ _ Hall).
          -- split; [|exact I]. apply ok_push_ready. exact (all_cancelled_set_main _ _ Hall).
          -- split; [exact Hall|intros Hc; contradiction].
          -- split; [exact Hall|intros Hc; contradiction].
      + (* a helper task: it leaves the chart task's stack as it is *)
        exists k0. split; [apply (chart_step_other P (stack_is k0)); auto|]. split.
        * intros Hp. exfalso. pose proof (creach_cur_id P _ _ H) as Hlt. cbn in Hlt. rewrite (A0 Hp) in Hlt. unfold main_tid in Hne. lia.
        * intros Hp. destruct (A2 Hp) as [Q1 Q2]. cbn in Q2. destruct (Q2 Hne) as [Esg|[[v Esg] [Ek|[s [n Ek]]]]]; subst sg.
          -- destruct (unwind_step P t fr st Q1) as [Q1' [_ Hd]].
             destruct (step_frame P t fr (SThrow XCancelled) st) as [st1 d]. cbn [fst snd] in *.
             destruct Hd as [->|[[d' [n ->]] ->]]; cbn [after_step fst snd helpers_quiet].
             ++ split; [exact Q1'|intros _; left; reflexivity].
             ++ split; [exact Q1'|intros _; right]. split; [eauto|]. exact (below_node_save d' n false rest Hch).
          -- discriminate Ek.
          -- inversion Ek; subst fr rest. destruct (after_swallow_step P t s n v st Q1) as [Q1' [_ [v' Hd]]].
             destruct (step_frame P t (FRecAfterDefault s n) (SVal v) st) as [st1 d]. cbn [fst snd] in *. subst d. cbn [after_step fst snd helpers_quiet].
             split; [exact Q1'|intros _; right]. split; [eauto|left; reflexivity].
    -
      exists k0. split; [apply chart_finish; assumption|]. split; [exact A0|]. intros Hp. destruct (A2 Hp) as [Q1 _]. split; [|exact I].
      apply ok_set_tstate; [exact Q1|]. intros y Hy _ Hc. destruct (Nat.eqb_spec t main_tid) as [->|Hne]; [|exact I].
      cbn in Hc. destruct (find_task_in _ _ _ Hy) as [_ Hiy]. contradiction.
    -
      exists None. split; [apply chart_abort; reflexivity|]. split; [intros Hx; discriminate Hx|]. intros _. split; [apply all_cancelled_abort|exact I].
    -
      exists k0. split; [apply chart_gate; auto|]. unfold complete_gate at 1. rewrite wake_all_next. split; [exact A0|].
      intros Hp. destruct (A2 Hp) as [Q1 _]. split; [|exact I]. apply (complete_gate_tasks_ok cancelled_TP cancelled_wake). exact Q1.
    -
      exists k0. split; [apply chart_cancel; auto|]. rewrite cancel_task_next. split; [exact A0|].
      intros Hp. destruct (A2 Hp) as [Q1 _]. split; [|exact I]. apply (ok_cancel_task cancelled_TP cancelled_cancel_ready cancelled_cancel_wait). exact Q1.
  Qed.
End Quiet.

Definition haspc (tr : list obs) : bool := existsb is_pc_any tr.
Definition last_ok (tr : list obs) : Prop := forall a o b, tr = a ++ o :: b -> is_pc_any o = true -> forallb is_pc_any a = true.

Lemma split_app (new tr a b : list obs) (o : obs) :
  new ++ tr = a ++ o :: b -> (exists a', a = new ++ a' /\ tr = a' ++ o :: b) \/ (exists b', new = a ++ o :: b' /\ b = b' ++ tr).
Proof.
  revert a. induction new as [|x r IH]; intros a E.
  - left. exists a. split; [reflexivity|exact E].
  - destruct a as [|y a'].
    + cbn [app] in E. inversion E; subst. right. exists r. split; reflexivity.
    + cbn [app] in E. inversion E; subst. destruct (IH a' H1) as [[a'' [-> ->]]|[b' [-> ->]]].
      * left. exists a''. split; reflexivity.
      * right. exists b'. split; reflexivity.
Qed.

Lemma last_ok_app new tr :
  last_ok tr -> (forallb is_pc_any new = true \/ (haspc tr = false /\ forallb (fun o => negb (is_pc_any o)) new = true)) -> last_ok (new ++ tr).
Proof.
  intros Hl Hd a o b E Ho. destruct (split_app new tr a b o E) as [[a' [-> Et]]|[b' [En Eb]]].
  - destruct Hd as [Hn|[Hh _]].
    + rewrite forallb_app, Hn. exact (Hl a' o b Et Ho).
    + exfalso. unfold haspc in Hh. rewrite Et, existsb_app in Hh. cbn [existsb] in Hh. rewrite Ho, orb_true_r in Hh. discriminate Hh.
  - destruct Hd as [Hn|[_ Hn]].
    + rewrite En, forallb_app in Hn. apply andb_true_iff in Hn. apply Hn.
    + exfalso. rewrite En, forallb_app in Hn. apply andb_true_iff in Hn. destruct Hn as [_ Hn]. cbn [forallb] in Hn. rewrite Ho in Hn. discriminate Hn.
Qed.

Section Last.
  Variable P : prog.
  Hypothesis Hnf : forall m ev n k, p_mgr_fault P m ev n k = false.

  Lemma seen0_nopc tr : seen P is_pc 0 tr -> haspc tr = false.
  Proof.
    intros H. unfold haspc. destruct (existsb is_pc_any tr) eqn:E; [|reflexivity]. exfalso.
    apply existsb_exists in E. destruct E as [o [Hin Ho]]. destruct o; try discriminate Ho. destruct ev; try discriminate Ho.
    pose proof (H mgr) as Hm. cbn in Hm. pose proof (cnt_zero_notin _ _ _ Hm Hin) as F. cbn in F. rewrite Nat.eqb_refl in F. discriminate F.
  Qed.

  Lemma main_step_pc js jc pay t fr rest sg st :
    main_ok P js jc pay (TReady (fr :: rest) sg) -> handled fr sg = true ->
    exists new, st_trace (fst (step_frame P t fr sg st)) = new ++ st_trace st /\
                (forallb is_pc_any new = true \/ (jc = 0 /\ forallb (fun o => negb (is_pc_any o)) new = true)).
  Proof.
    intros [Hnr H] Hh. cbn [main_ok] in *. chart_step_cases mk H Hnr Hh sg; cbn [fst snd];
      autorewrite with core; cbn [st_trace emit_obs bump with_store spawn fst];
      match goal with |- exists new, ?l = new ++ ?tr /\ _ => let p := prefix_of l tr in exists p; split; [reflexivity|] end;
      first [left; reflexivity | right; split; reflexivity].
  Qed.

  Lemma main_ok_jc_ph js jc pay ts : main_ok P js jc pay ts -> jc <> 0 -> phase_of_state ts = 2.
  Proof.
    intros H Hj. destruct ts as [k sg|w k|r]; [destruct H as [_ H]| |reflexivity]; cbn [main_ok phase_of_state] in *;
      (destruct k as [|f [|g [|h r']]]; try contradiction; shape H;
       repeat match goal with H0 : _ /\ _ |- _ => destruct H0 end; try (exfalso; apply Hj; assumption); try reflexivity).
  Qed.

  Theorem creach_complete_last : forall st c, creach P st c -> last_ok (st_trace st).
  Proof.
    apply (creach_state_inv P (fun st => last_ok (st_trace st))).
    - intros a o b E Ho. cbn in E. destruct a as [|y a']; [inversion E; subst; discriminate Ho|]. inversion E. destruct a'; discriminate.
    - intros a b (_ & _ & Et & _). rewrite Et. trivial.
    - intros st t fr rest sg H IH. pose proof (creach_evolves P _ _ H) as Hev.
      destruct (creach_pipeline_inv P Hnf _ _ H) as [js [jc [pay [(_ & S2 & _) HT]]]].
      destruct (Nat.eqb_spec t main_tid) as [->|Hne].
      + destruct HT as [HM Hty]. cbn [cstate expects] in HM, Hty.
        destruct (main_step_pc js jc pay main_tid fr rest sg st HM Hty) as [new [Etr Hd]]. rewrite Etr. apply last_ok_app; [exact IH|].
        destruct Hd as [Hd|[-> Hd]]; [left; exact Hd|right; split; [exact (seen0_nopc _ S2)|exact Hd]].
      + pose proof (creach_helper_frames P _ _ _ _ H Hne) as Hk. cbn [forallb] in Hk. apply andb_true_iff in Hk. destruct Hk as [Kf _].
        destruct (haspc (st_trace st)) eqn:Ehp.
        * (* a callback has been made: the helper is unwinding a CancelledError and adds nothing *)
          assert (Hjc : jc <> 0) by (intros ->; rewrite (seen0_nopc _ S2) in Ehp; discriminate Ehp).
          destruct (find_main st Hev) as [xm [Fm [Hinm Hidm]]].
          destruct (tasks_ok_in _ _ _ (chart_other _ _ _ _ _ Hne HT) Hinm Hidm) as [Hok _].
          pose proof (main_ok_jc_ph js jc pay _ Hok Hjc) as Hph.
          destruct (creach_quiet_inv P Hnf _ _ H) as [k0 [HK [_ A2]]].
          rewrite phase_of_state_stack, (tasks_ok_in _ _ _ (chart_other _ _ _ _ _ Hne HK) Hinm Hidm) in Hph.
          destruct (A2 Hph) as [_ Q2]. cbn in Q2. destruct (Q2 Hne) as [Esg|[[v Esg] [Ek|[s [n Ek]]]]]; subst sg.
          -- rewrite (unwind_trace P t fr st Kf). exact IH.
          -- discriminate Ek.
          -- inversion Ek; subst fr rest. exact IH.
        * destruct (helper_step_no_pipe P t fr sg st Kf) as [new [Etr Hnew]]. rewrite Etr. apply last_ok_app; [exact IH|].
          right. split; [exact Ehp|]. rewrite forallb_forall in *. intros o Ho'. specialize (Hnew o Ho'). destruct o; try reflexivity. destruct ev; try reflexivity. discriminate Hnew.
  Qed.
End Last.

Theorem pipeline_complete_comes_last_all_programs P :
  (forall m ev n k, p_mgr_fault P m ev n k = false) ->
  forall st, reachable P st ->
    forall a o b, st_trace st = a ++ o :: b -> is_pc_any o = true -> forallb is_pc_any a = true.
Proof. intros Hnf st Hr. exact (creach_complete_last P Hnf st None (reachable_creach P st Hr)). Qed.

Theorem plain_pipeline_complete_comes_last P :
  plain_prog P -> (forall m ev n k, p_mgr_fault P m ev n k = false) ->
  forall st, reachable P st ->
    forall a o b, st_trace st = a ++ o :: b -> is_pc_any o = true -> forallb is_pc_any a = true.
Proof. intros _. exact (pipeline_complete_comes_last_all_programs P). Qed.
