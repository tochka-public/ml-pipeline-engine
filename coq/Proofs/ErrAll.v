(* ALL programs, every schedule incl. cancellation, event managers that do not raise: PipelineChart.run never raises an Exception
   subclass (C05): what it raises is a BaseException outside Exception -- a node's, or the caller's CancelledError -- and what it
   reports as PipelineResult.error is an Exception.  (The interpreter's out-of-fuel artefact is the one model-only alternative.) *)
From MLPE Require Import Engine.Run Proofs.ExecLemmas Proofs.PlainInv Proofs.PlainExec Proofs.PlainPipe Proofs.PlainQuiet.

Definition not_exception (e : exn) : Prop := is_Exception e = false \/ exists k, e = XEng EOutOfFuel k.

Definition exn_ok (k : list frame) (sg : option signal) : Prop :=
  (forall e, In (FChartAfterEmitErr e) k -> is_Exception e = true) /\
  match k with
  | FRunWait :: _ | FChartAfterRun :: _ => True
  | _ => forall e, sg = Some (SThrow e) -> not_exception e
  end.
Definition exn_ts (ts : tstate frame) : Prop :=
  match ts with
  | TReady k sg => exn_ok k (Some sg)
  | TWait _ k => exn_ok k None
  | TDone (SThrow e) => not_exception e
  | TDone (SResErr e) => is_Exception e = true
  | TDone _ => True
  end.

Section ErrAll.
  Variable P : prog.
  Hypothesis Hnf : forall m ev n k, p_mgr_fault P m ev n k = false.

  Lemma main_step_exn js jc pay t fr rest sg st :
    main_ok P js jc pay (TReady (fr :: rest) sg) -> handled fr sg = true -> exn_ok (fr :: rest) (Some sg) ->
    exn_ts (nstate rest (snd (step_frame P t fr sg st))).
  Proof.
    intros [Hnr H] Hh [He Hs]. cbn [main_ok] in *. chart_step_cases mk H Hnr Hh sg;
      cbn [fst snd nstate app exn_ts exn_ok emit_frames]; try exact I;
      try (split; [intros e1 Hin; repeat (destruct Hin as [Hin|Hin]; [try discriminate Hin; inversion Hin; subst; first [assumption | apply He; cbn; auto]|]); try contradiction
                  |try exact I; intros e1 Hc; try discriminate Hc; inversion Hc; subst; first [left; assumption | apply Hs; reflexivity]]);
      try (first [left; assumption | apply Hs; reflexivity | apply He; cbn; auto]).
  Qed.

  Lemma exn_ok_sig k s s' : (forall e, s' = Some (SThrow e) -> not_exception e) -> exn_ok k s -> exn_ok k s'.
  Proof. intros Hs [A B]. split; [exact A|]. destruct k as [|f r]; [exact Hs|]. destruct f; try exact Hs; exact I. Qed.
End ErrAll.

Theorem run_never_raises_an_exception_subclass_all_programs P :
  (forall m ev n k, p_mgr_fault P m ev n k = false) ->
  forall st, reachable P st ->
    (forall e, main_state st = Some (TDone (SThrow e)) -> is_Exception e = false \/ exists k, e = XEng EOutOfFuel k) /\
    (forall e, main_state st = Some (TDone (SResErr e)) -> is_Exception e = true).
Proof.
  intros Hnf st Hr.
  assert (Hmain : forall ts, main_state st = Some ts -> exn_ts ts).
  { intros ts. apply (reachable_chart_inv P Hnf (fun _ => exn_ts)); try assumption; try (intros; assumption).
    - intros tr w k. apply exn_ok_sig. discriminate.
    - intros tr k sg. apply exn_ok_sig. intros e He. inversion He. left. reflexivity.
    - intros tr w k. apply exn_ok_sig. intros e He. inversion He. left. reflexivity.
    - intros tr k. right. eauto.
    - split; [intros e [Hc|[]]; discriminate Hc|intros e Hc; discriminate Hc].
    - intros js jc pay fr rest sg st0 _. apply main_step_exn. exact Hnf. }
  split; intros e Hm; exact (Hmain _ Hm).
Qed.

(* what is reported was the error of a finished helper task when run() looked, or the pool-registry error *)
Definition from_task (tr : list obs) (e : exn) : Prop :=
  (exists alts, In (ORunDone alts) tr /\ In e alts) \/ exists k, e = XEng EPoolNotReady k.

Definition src_ok (tr : list obs) (k : list frame) (sg : option signal) : Prop :=
  (forall e, In (FChartAfterEmitErr e) k -> from_task tr e) /\
  match k with
  | FChartAfterRun :: _ => forall e, sg = Some (SThrow e) -> is_Exception e = true -> from_task tr e
  | FRunWait :: _ => forall e, sg = Some (SThrow e) -> e = XCancelled
  | _ => True
  end.
Definition src_ts (tr : list obs) (ts : tstate frame) : Prop :=
  match ts with
  | TReady k sg => src_ok tr k (Some sg)
  | TWait _ k => src_ok tr k None
  | TDone (SResErr e) => from_task tr e
  | TDone _ => True
  end.

Lemma from_task_mono new tr e : from_task tr e -> from_task (new ++ tr) e.
Proof. intros [[alts [A B]]|H]; [left; exists alts; split; [apply in_or_app; right; exact A|exact B]|right; exact H]. Qed.
Lemma src_ok_mono new tr k sg : src_ok tr k sg -> src_ok (new ++ tr) k sg.
Proof.
  intros [A B]. split; [intros e He; apply from_task_mono; exact (A e He)|]. destruct k as [|f r]; [exact I|]. destruct f; try exact I.
  - intros e He Hx. apply from_task_mono. exact (B e He Hx).
  - exact B.
Qed.
Lemma src_ts_mono new tr ts : src_ts tr ts -> src_ts (new ++ tr) ts.
Proof. destruct ts as [k sg|w k|r]; cbn [src_ts]; try apply src_ok_mono. destruct r; try exact (fun x => x). apply from_task_mono. Qed.

Section ErrSource.
  Variable P : prog.
  Hypothesis Hnf : forall m ev n k, p_mgr_fault P m ev n k = false.

  Lemma main_step_src js jc pay t fr rest sg st :
    main_ok P js jc pay (TReady (fr :: rest) sg) -> handled fr sg = true -> src_ok (st_trace st) (fr :: rest) (Some sg) ->
    src_ts (st_trace (fst (step_frame P t fr sg st))) (nstate rest (snd (step_frame P t fr sg st))).
  Proof.
    intros [Hnr H] Hh [Hv Hs]. cbn [main_ok] in *. chart_step_cases mk H Hnr Hh sg;
      cbn [fst snd nstate app src_ts src_ok emit_frames]; autorewrite with core; cbn [st_trace emit_obs bump with_store spawn fst];
      try exact I;
      try (split; [intros e1 Hin; repeat (destruct Hin as [Hin|Hin]; [try discriminate Hin; inversion Hin; subst;
                                           first [solve [apply Hs; reflexivity] | solve [apply (from_task_mono [_]); apply Hv; cbn; auto] | solve [apply Hv; cbn; auto]]|]); try contradiction
                  |try exact I; intros e1 Hc; try discriminate Hc; try (intros Hex)]);
      try solve [apply Hv; cbn; auto | apply (from_task_mono [_]); apply Hv; cbn; auto | apply Hs; reflexivity].
    all: try (inversion Hc; subst e1).
    all: try (exfalso; match goal with H1 : cq _ |- _ => pose proof (H1 _ eq_refl) as Hx; subst; discriminate end).
    all: try (pose proof (Hs _ eq_refl) as Hx; subst; discriminate).
    all: try reflexivity.
    all: try (left; eexists; split; [left; reflexivity|apply pick_error_in]).
    all: try (right; eexists; reflexivity).
    all: try (left; eexists; split; [left; reflexivity|]; match goal with Hq : task_errors _ = _ :: _ |- _ => rewrite Hq; apply pick_error_in end).
    all: try (destruct Hin as [Hin|[]]; inversion Hin; subst; apply Hs; [reflexivity|assumption]).
  Qed.
End ErrSource.

Lemma src_ok_sig tr k s s' : (forall e, s' = Some (SThrow e) -> e = XCancelled) -> src_ok tr k s -> src_ok tr k s'.
Proof.
  intros Hs [A B]. split; [exact A|]. destruct k as [|f r]; [exact I|]. destruct f; try exact I.
  - intros e He Hx. pose proof (Hs e He) as ->. discriminate Hx.
  - exact Hs.
Qed.

(* [ORunDone alts]: run() looked at its tasks and found the errors alts of finished (not cancelled) helper tasks *)
Theorem reported_error_is_a_task_error_all_programs P :
  (forall m ev n k, p_mgr_fault P m ev n k = false) ->
  forall st e, reachable P st -> main_state st = Some (TDone (SResErr e)) ->
    (exists alts, In (ORunDone alts) (st_trace st) /\ In e alts) \/ exists k, e = XEng EPoolNotReady k.
Proof.
  intros Hnf st e Hr Hm. apply (reachable_chart_inv P Hnf src_ts) with (ts := TDone (SResErr e)); try assumption.
  - apply src_ts_mono.
  - intros tr w k. apply src_ok_sig. discriminate.
  - intros tr k sg. apply src_ok_sig. intros e0 He. inversion He. reflexivity.
  - intros tr w k. apply src_ok_sig. intros e0 He. inversion He. reflexivity.
  - intros tr k. exact I.
  - split; [intros e0 [Hc|[]]; discriminate Hc|exact I].
  - intros js jc pay fr rest sg st0 _. apply main_step_src. exact Hnf.
Qed.
