(* Plain programs: one frame step, written out for the frames a plain program can reach. Such a step either creates one task
   and does nothing else, or applies a short sequence of primitive effects; the directive it returns is computed without the
   switch / one-of / recurrent branches and without dependency errors. `step_plain` says that `step_frame` is this function on
   plain frames, for every graph; that the graph has no switch node and no one-of head matters only for the stack a created
   node task starts with (`plain_act_new`). Every later fact about a step of a plain program is read off `plain_act`. *)
From MLPE Require Import Engine.Run Proofs.ExecLemmas Proofs.PlainWorld.

Inductive eff :=
| EObs (o : obs)
| EBump (c : ctr)
| ESetResult (n : key) (v : value)
| ESetProcessed (n : key)
| EFinally (d : rdag) (n : key)
| ECancelHelpers.

Inductive act := ADo (l : list eff) | ANew (nm : tname) (k : list frame).

Section PlainStep.
  Variable P : prog.
  Notation G := (b_graph (build (p_decls P) (p_inp P) (p_out P))).
  Notation inp := (b_input (build (p_decls P) (p_inp P) (p_out P))).
  Notation out := (b_output (build (p_decls P) (p_inp P) (p_out P))).

  Definition run_eff (e : eff) (st : mstate) : mstate :=
    match e with
    | EObs o => emit_obs o st
    | EBump c => bump c st
    | ESetResult n v => with_store (set_result n v) st
    | ESetProcessed n => with_store (set_processed n) st
    | EFinally d n => finally_b P d n st
    | ECancelHelpers => cancel_tasks (helper_tids st) st
    end.
  Definition run_effs (l : list eff) (st : mstate) : mstate := fold_left (fun s e => run_eff e s) l st.
  Definition run_act (a : act) (st : mstate) : mstate :=
    match a with ADo l => run_effs l st | ANew nm k => fst (spawn nm true k st) end.

  Definition pools_missing : bool :=
    (needs_thread P && negb (p_thread_ready P)) || (needs_process P && negb (p_process_ready P)).

  (* what the task created for node n starts with; in a graph without switch nodes and one-of heads, _run_node *)
  Definition node_entry (d : rdag) (n : key) : list frame :=
    if is_switch G n then [FSwitchStart d n]
    else if is_head G n then [FOneOfLoop d n (na_cands (nattr_of G n))] else [FNodeStart d n false].

  (* an exception caught by `except Exception` around an emission is reported; anything else passes *)
  Definition report (ev : evkind) (n : option key) (e : exn) (after : frame) : directive :=
    if is_Exception e then DCont [emit_frames ev n (Some e) None; after] SGo else DRet (SThrow e).

  Definition plain_act (fr : frame) (sg : signal) (st : mstate) : act * directive :=
    match fr, sg with
    | FChartStart, SGo => (ADo [], DCont [emit_frames EvPipelineStart None None None; FChartAfterStart] SGo)
    | FChartAfterStart, SVal _ =>
      if pools_missing then (ADo [], DCont [FChartAfterRun] (SThrow (XEng EPoolNotReady inp)))
      else (ANew TNRun [FDagStart (maind P)], DCont [FRunWait; FChartAfterRun] SGo)
    | FChartAfterRun, SVal v => (ADo [], DCont [emit_frames EvPipelineComplete None None (Some v); FChartAfterEmitOk v] SGo)
    | FChartAfterRun, SThrow e | FChartAfterEmitOk _, SThrow e => (ADo [], report EvPipelineComplete None e (FChartAfterEmitErr e))
    | FChartAfterEmitOk v, SVal _ => (ADo [], DRet (SVal v))
    | FChartAfterEmitErr e, SVal _ => (ADo [], DRet (SResErr e))
    | FEmit ev n err res mgr false, SGo =>
      if Nat.leb (p_mgrs P) mgr then (ADo [], DRet (SVal VNone))
      else (ADo [EObs (OEmit mgr ev n err res); EBump (CEmit mgr ev n)],
            let k := ctr_get (CEmit mgr ev n) st in
            if p_mgr_gated P then DSuspend (WGate (GEmit ev n mgr k)) [FEmit ev n err res mgr true]
            else if p_mgr_fault P mgr ev n k then DRet (SThrow (XMgr k)) else DCont [FEmit ev n err res (S mgr) false] SGo)
    | FEmit ev n err res mgr true, SGo =>
      let k := Nat.pred (ctr_get (CEmit mgr ev n) st) in
      (ADo [], if p_mgr_fault P mgr ev n k then DRet (SThrow (XMgr k)) else DCont [FEmit ev n err res (S mgr) false] SGo)
    | FSave n v false _, SGo =>
      match p_store P with
      | StNone => (ADo [], DRet (SVal VNone))
      | _ => (ADo [EObs (OSave n v); EBump (CSave n)],
              let k := ctr_get (CSave n) st in
              if p_store_gated P then DSuspend (WGate (GSave n k)) [FSave n v true k] else DCont [FSave n v true k] SGo)
      end
    | FSave n v true k, SGo =>
      (ADo [], if p_store_fault P n k then DRet (SThrow (XStore k))
               else match p_store P with
                    | StWriteOnce => if Nat.ltb 0 k then DRet (SThrow (XEng EArtifactExists n)) else DRet (SVal VNone)
                    | _ => DRet (SVal VNone)
                    end)
    | FRunWait, SGo =>
      if run_pred P st
      then (ADo [EObs (ORunDone (task_errors st)); ECancelHelpers],
            DRet match task_errors st with
                 | e :: r => SThrow (pick_error P e r)
                 | [] => SVal (get_result out true (st_store st))
                 end)
      else (ADo [], DSuspend (WCond CRun) [FRunWait])
    | FRunWait, SThrow e => (ADo [EObs (ORunDone []); ECancelHelpers], DRet (SThrow e))
    | FDagStart d, SGo =>
      (ADo [], match filter (fun k => negb (exists_processed k (st_store st))) (p_order P d) with
               | [] => DRet (SVal VNone)
               | order => DCont [FDagLoop d order []] SGo
               end)
    | FDagLoop d [] locals, SGo => (ADo [], DCont [FDagFinal d] SGo)
    | FDagLoop d (n :: rest) locals, SGo =>
      if is_ready P (st_store st) d n
      then (ANew (TNNode n) (node_entry d n), DCont [FDagLoop d rest (locals ++ [st_next st])] SGo)
      else (ADo [], DSuspend (WCond (CNode n)) [FDagLoop d (n :: rest) locals])
    | FDagFinal d, SGo =>
      (ADo [], if exists_result (d_dst d) (st_store st) then DRet (SVal (get_result (d_dst d) true (st_store st)))
               else DSuspend (WCond (CNode (d_dst d))) [FDagFinal d])
    | FNodeStart d n force, SGo => (ADo [], DCont [FExecStart d n force; FNodeAfterExec d n] SGo)
    | FNodeAfterExec d n, SElsewhere => (ADo [EFinally d n], DRet (SVal VNone))
    | FNodeAfterExec d n, SVal res =>
      (ADo [ESetResult n res; EObs (OSetResult n res)], DCont [FSave n res false 0; FNodeAfterSave d n true] SGo)
    | FNodeAfterExec d n, SThrow e => (ADo [EFinally d n], DRet (SThrow e))
    | FNodeAfterSave d n _, SVal _ => (ADo [EFinally d n], DRet (SVal VNone))
    | FNodeAfterSave d n _, SThrow e => (ADo [EFinally d n], DRet (SThrow e))
    | FExecStart d n force, SGo =>
      if exists_processed n (st_store st)
      then (ADo [], if event_is_set n st then DRet SElsewhere else DSuspend (WEvent n) [FExecDup n])
      else (ADo [ESetProcessed n; EObs (OProcessed n)],
            DCont [emit_frames EvNodeStart (Some n) None None; FExecAfterStart d n force] SGo)
    | FExecDup n, SGo => (ADo [], DRet SElsewhere)
    | FExecAfterStart d n force, SVal _ =>
      (ADo [], match node_kwargs P st n with
               | None => DCont [FExecAfterBody d n] (SThrow (XEng EInternal n))
               | Some kw => DCont [FRetry (real_index n) force kw 1; FExecAfterBody d n] SGo
               end)
    | FExecAfterBody d n, SVal v => (ADo [], DCont [emit_frames EvNodeComplete (Some n) None None; FExecAfterOk d n v] SGo)
    | FExecAfterBody d n, SThrow e | FExecAfterOk d n _, SThrow e => (ADo [], report EvNodeComplete (Some n) e (FExecAfterErr d e))
    | FExecAfterOk d n v, SVal _ => (ADo [], DRet (SVal v))
    | FExecAfterErr d e, SVal _ => (ADo [], DRet (SThrow e))
    | FRetry i false kw att, SGo =>
      (ADo [EObs (OStart i (ctr_get (CBody i) st) kw); EBump (CBody i)],
       match ns_mode (nspec_of P i) with
       | MImmediate | MInline => DCont [FRetryAfterBody i kw att] SGo
       | _ => DSuspend (WGate (GBody i (ctr_get (CBody i) st))) [FRetryAfterBody i kw att]
       end)
    | FRetryAfterBody i kw att, SGo =>
      match retry_decide (nspec_of P i) (p_body P i kw (Nat.pred att)) att with
      | RDReturn v => (ADo [], DRet (SVal v))
      | RDFinal c =>
        if ns_default (nspec_of P i) then (ADo [EObs (ODefault i kw)], DRet (SVal (VDef i kw)))
        else (ADo [], DRet (SThrow (XNode c i (Nat.pred att))))
      | RDPropagate c => (ADo [], DRet (SThrow (XNode c i (Nat.pred att))))
      | RDRetry c =>
        (ADo [], DCont [emit_frames EvNodeComplete (Some (KN i)) (Some (XNode c i (Nat.pred att))) None; FRetryAfterEmit i kw att] SGo)
      end
    | FRetryAfterEmit i kw att, SVal _ =>
      match pol_delay (nspec_of P i) with
      | O => (ADo [], DYield [FRetryAfterSleep i kw att])
      | dl => (ADo [EObs (OSleep i dl); EBump (CSleep i)], DSuspend (WGate (GTimer i (ctr_get (CSleep i) st))) [FRetryAfterSleep i kw att])
      end
    | FRetryAfterSleep i kw att, SGo => (ADo [], DCont [FRetry i false kw (S att)] SGo)
    | _, SThrow e => (ADo [], DRet (SThrow e))
    | _, SResErr e => (ADo [], DRet (SResErr e))
    | _, _ => (ADo [], DRet (SThrow (XEng EOutOfFuel inp)))
    end.

  Definition plain_step (t : tid) (fr : frame) (sg : signal) (st : mstate) : mstate * directive :=
    (run_act (fst (plain_act fr sg st)) st, snd (plain_act fr sg st)).

  Theorem step_plain t fr sg st :
    plain_frame P fr = true -> clean_sig sg -> PS st -> step_frame P t fr sg st = plain_step t fr sg st.
  Proof.
    intros Hf Hs Hst. unfold PS in Hst. unfold plain_step.
    destruct fr; try discriminate Hf; cbn [plain_frame] in Hf; plain_prep;
      destruct sg; cbn [clean_sig] in Hs;
      try match goal with H : clean ?v = true |- _ => pose proof (clean_not_rec v H) as Hnr; pose proof (clean_not_exn v H) as Hne end;
      cbn [step_frame plain_act spawn]; rewrite ?Hnr, ?Hne;
      unfold default_or_raise, reduced, report, pools_missing, node_entry; cbn [d_oneof d_rec maind andb orb];
      repeat break_match; try discriminate; try reflexivity.
    (* the launcher found a failed dependency: there is none in a plain store *)
    all: rewrite (plain_dep_error P _ _ _ Hst) in *; discriminate.
  Qed.

  Corollary step_dir t fr sg st :
    plain_frame P fr = true -> clean_sig sg -> PS st -> snd (step_frame P t fr sg st) = snd (plain_act fr sg st).
  Proof. intros Hf Hs Hst. rewrite (step_plain t fr sg st Hf Hs Hst). reflexivity. Qed.

  Hypothesis Hsw : forall n, is_switch G n = false.
  Hypothesis Hhd : forall n, is_head G n = false.

  Lemma plain_act_new fr sg st nm k :
    plain_frame P fr = true -> fst (plain_act fr sg st) = ANew nm k ->
    (nm = TNRun /\ k = [FDagStart (maind P)]) \/ exists n, nm = TNNode n /\ k = [FNodeStart (maind P) n false].
  Proof.
    intros Hf. destruct fr; try discriminate Hf; destruct sg; cbn [plain_act]; unfold node_entry;
      repeat break_match; rewrite ?Hsw, ?Hhd in *; try discriminate; cbn [fst]; intros E; inversion E; subst.
    - left. auto.
    - right. cbn [plain_frame] in Hf. apply is_main_eq in Hf. subst d. eauto.
  Qed.


  Lemma plain_act_sets fr sg st l n v : fst (plain_act fr sg st) = ADo l -> In (ESetResult n v) l -> sg = SVal v.
  Proof.
    destruct fr; destruct sg; cbn [plain_act]; repeat break_match; cbn [fst]; intros E Hin; inversion E; subst;
      repeat (destruct Hin as [Hin|Hin]; [try discriminate Hin|]); try contradiction. inversion Hin. reflexivity.
  Qed.
End PlainStep.

Section EffRel.
  Variable P : prog.
  Variable Rel : mstate -> mstate -> Prop.
  Hypothesis Rel_trans : forall a b c, Rel a b -> Rel b c -> Rel a c.
  Hypothesis R_emit_obs : forall o st, Rel st (emit_obs o st).
  Hypothesis R_with_store : forall f st, Rel st (with_store f st).
  Hypothesis R_bump : forall c st, Rel st (bump c st).
  Hypothesis R_push_ready : forall t st, Rel st (push_ready t st).
  Hypothesis R_set_waiters : forall w st, Rel st (set_waiters w st).
  Hypothesis R_set_tstate : forall t ts st, Rel st (set_tstate t ts st).
  Hypothesis R_add_event : forall n st, Rel st (add_event n st).

  Lemma run_eff_rel e st0 st : Rel st0 st -> Rel st0 (run_eff P e st).
  Proof.
    intros H. destruct e; cbn [run_eff].
    - eapply Rel_trans; [exact H|apply R_emit_obs].
    - eapply Rel_trans; [exact H|apply R_bump].
    - eapply Rel_trans; [exact H|apply R_with_store].
    - eapply Rel_trans; [exact H|apply R_with_store].
    - apply (R_finally_b P Rel Rel_trans R_push_ready R_set_waiters R_set_tstate R_add_event). exact H.
    - apply (R_cancel_tasks Rel Rel_trans R_push_ready R_set_waiters R_set_tstate). exact H.
  Qed.

  Lemma run_effs_rel l st0 st : Rel st0 st -> Rel st0 (run_effs P l st).
  Proof. unfold run_effs. revert st. induction l as [|e r IH]; intros st H; cbn [fold_left]; [exact H|]. apply IH, run_eff_rel, H. Qed.
End EffRel.

Section EffTasks.
  Variable P : prog.
  Variable TP : task frame -> Prop.
  Hypothesis TP_wake : forall x w k, t_state x = TWait w k -> TP x -> TP (with_ts x (TReady k SGo)).

  Definition cancel_closed : Prop :=
    (forall x k sg, t_state x = TReady k sg -> TP x -> TP (with_ts x (TReady k (SThrow XCancelled)))) /\
    (forall x w k, t_state x = TWait w k -> TP x -> TP (with_ts x (TReady k (SThrow XCancelled)))).

  Lemma run_effs_tasks l st : (In ECancelHelpers l -> cancel_closed) -> tasks_ok TP st -> tasks_ok TP (run_effs P l st).
  Proof.
    unfold run_effs. revert st. induction l as [|e r IH]; intros st Hc H; cbn [fold_left]; [exact H|].
    apply IH; [intros Hin; apply Hc; right; exact Hin|].
    destruct e; cbn [run_eff]; try (apply ok_emit_obs || apply ok_bump || apply ok_with_store || apply (ok_finally_b TP TP_wake)); try exact H.
    destruct (Hc (or_introl eq_refl)) as [Cr Cw]. apply (ok_cancel_tasks TP Cr Cw). exact H.
  Qed.

  Lemma run_act_tasks a st :
    (forall l, a = ADo l -> In ECancelHelpers l -> cancel_closed) ->
    (forall nm k, a = ANew nm k -> TP {| t_id := st_next st; t_name := nm; t_state := TReady k SGo; t_helper := true |}) ->
    tasks_ok TP st -> tasks_ok TP (run_act P a st).
  Proof.
    intros Hc Hn H. destruct a as [l|nm k]; cbn [run_act].
    - apply run_effs_tasks; [apply Hc; reflexivity|exact H].
    - apply ok_spawn; [exact H|apply Hn; reflexivity].
  Qed.
End EffTasks.

(* the case analysis behind every fact that depends on which frame is resumed: the plain frame forms, the signal, then the
   tests `plain_act` makes *)
Ltac plain_cases fr sg Hf Hs :=
  destruct fr; try discriminate Hf; cbn [plain_frame] in Hf; plain_prep; destruct sg; cbn [clean_sig] in Hs;
  cbn [plain_act fst snd]; unfold report, pools_missing; repeat (break_match; cbn [fst snd]).

Section StaysPlain.
  Variable P : prog.
  Notation G := (b_graph (build (p_decls P) (p_inp P) (p_out P))).
  Hypothesis Hsw : forall n, is_switch G n = false.
  Hypothesis Hhd : forall n, is_head G n = false.
  Hypothesis Hbody : forall i kw a v, p_body P i kw a = OVal v -> clean v = true.

  Lemma plain_step_dir t fr sg st :
    plain_frame P fr = true -> clean_sig sg -> PS st -> dir_plain P (snd (step_frame P t fr sg st)).
  Proof.
    intros Hf Hs Hst. rewrite (step_dir P t fr sg st Hf Hs Hst). unfold PS in Hst.
    plain_cases fr sg Hf Hs; cbn [dir_plain]; try exact I;
      cbn [plain_stack forallb plain_frame emit_frames clean_sig]; rewrite ?is_main_refl; cbn [andb negb];
      repeat split; try reflexivity; try exact I; try assumption; try (apply plain_get_result; assumption);
      try (rewrite andb_true_r); try assumption; try (eapply decide_return_clean; eassumption).
  Qed.

  Lemma ps_run_effs l st : (forall n v, In (ESetResult n v) l -> clean v = true) -> PS st -> PS (run_effs P l st).
  Proof.
    unfold run_effs. revert st. induction l as [|e r IH]; intros st Hc H; cbn [fold_left]; [exact H|].
    apply IH; [intros n v Hin; apply (Hc n v); right; exact Hin|].
    destruct e; cbn [run_eff]; try exact H.
    - apply ps_set_result; [apply (Hc n v); left; reflexivity|exact H].
    - apply ps_set_processed. exact H.
    - apply ps_finally_b. exact H.
    - apply ps_cancel_tasks. exact H.
  Qed.

  Lemma plain_step_store t fr sg st :
    plain_frame P fr = true -> clean_sig sg -> PS st -> PS (fst (step_frame P t fr sg st)).
  Proof.
    intros Hf Hs Hst. rewrite (step_plain P t fr sg st Hf Hs Hst). cbn [plain_step fst].
    destruct (fst (plain_act P fr sg st)) as [l|nm f] eqn:E; cbn [run_act]; [|exact Hst].
    apply ps_run_effs; [|exact Hst].
    (* the only result a frame stores is the value it is resumed with *)
    intros n v Hin. rewrite (plain_act_sets P _ _ _ _ _ _ E Hin) in Hs. exact Hs.
  Qed.

  Lemma plain_step_tasks_gen (TP : task frame -> Prop) :
    (forall x w k, t_state x = TWait w k -> TP x -> TP (with_ts x (TReady k SGo))) ->
    (forall x k sg, t_state x = TReady k sg -> TP x -> TP (with_ts x (TReady k (SThrow XCancelled)))) ->
    (forall x w k, t_state x = TWait w k -> TP x -> TP (with_ts x (TReady k (SThrow XCancelled)))) ->
    (forall i, TP {| t_id := i; t_name := TNRun; t_state := TReady [FDagStart (maind P)] SGo; t_helper := true |}) ->
    (forall i n, TP {| t_id := i; t_name := TNNode n; t_state := TReady [FNodeStart (maind P) n false] SGo; t_helper := true |}) ->
    forall t fr sg st,
      plain_frame P fr = true -> clean_sig sg -> PS st -> tasks_ok TP st -> tasks_ok TP (fst (step_frame P t fr sg st)).
  Proof.
    intros Hw Hcr Hcw Hl Hn t fr sg st Hf Hs Hst Ht. rewrite (step_plain P t fr sg st Hf Hs Hst). cbn [plain_step fst].
    apply (run_act_tasks P TP Hw); [split; assumption| |exact Ht].
    intros nm f E. destruct (plain_act_new P Hsw Hhd _ _ _ _ _ Hf E) as [[-> ->]|[n [-> ->]]]; [apply Hl|apply Hn].
  Qed.

  Lemma plain_step_tasks t fr sg st :
    plain_frame P fr = true -> clean_sig sg -> PS st -> tasks_ok (plain_TP P) st -> tasks_ok (plain_TP P) (fst (step_frame P t fr sg st)).
  Proof.
    apply (plain_step_tasks_gen (plain_TP P) (plain_TP_wake P) (plain_TP_cancel_ready P) (plain_TP_cancel_wait P)).
    - intros i. apply plain_spawned. cbn [plain_frame]. apply is_main_refl.
    - intros i n. apply plain_spawned. cbn [plain_frame]. rewrite is_main_refl. reflexivity.
  Qed.

  Lemma exec_plain fuel t k sg st :
    PS st -> tasks_ok (plain_TP P) st -> plain_stack P k = true -> clean_sig sg ->
    PS (exec P fuel t k sg st) /\ tasks_ok (plain_TP P) (exec P fuel t k sg st).
  Proof.
    intros H1 H2 H3 H4.
    apply (exec_rule P t (fun k sg s => PS s /\ tasks_ok (plain_TP P) s /\ plain_stack P k = true /\ clean_sig sg)
                     (fun s => PS s /\ tasks_ok (plain_TP P) s)); [| |auto].
    - intros sg' s [A [B _]]. split; [exact A|]. apply ok_set_tstate; [exact B|]. intros x _ _. exact I.
    - intros fr rest sg' s [A [B [C D]]]. split.
      { split; [exact A|]. apply ok_abort; [|exact B]. intros x k0 _. exact I. }
      cbn [plain_stack forallb] in C. apply andb_true_iff in C. destruct C as [Cf Cr].
      pose proof (plain_step_dir t fr sg' s Cf D A) as Hd.
      pose proof (plain_step_store t fr sg' s Cf D A) as Hs.
      pose proof (plain_step_tasks t fr sg' s Cf D A B) as Ht.
      destruct (step_frame P t fr sg' s) as [st1 [w k'|k'|k' sg''|sg'']]; cbn [fst snd dir_plain] in *.
      + split; [exact Hs|]. apply ok_suspend; [exact Ht|]. intros x _ _. unfold plain_TP. cbn. rewrite plain_stack_app, Hd. exact Cr.
      + split; [exact Hs|]. apply ok_push_ready. apply ok_set_tstate; [exact Ht|]. intros x _ _. unfold plain_TP. cbn.
        rewrite plain_stack_app, Hd. auto.
      + destruct Hd as [Hk Hsg]. rewrite plain_stack_app, Hk. auto.
      + auto.
  Qed.

  Theorem reachable_plain : forall st, reachable P st -> PS st /\ tasks_ok (plain_TP P) st.
  Proof.
    apply (reachable_inv P (fun st => PS st /\ tasks_ok (plain_TP P) st)).
    - split; [unfold PS, plain_store; cbn; auto|]. unfold tasks_ok, init_state. cbn. constructor; [|constructor]. unfold plain_TP. cbn. auto.
    - intros st _ [A B]. apply (loop_step_rule P (fun s => PS s /\ tasks_ok (plain_TP P) s)); [auto| |].
      + intros. split; [exact A|apply ok_dequeue; exact B].
      + intros t rest x k sg Hq Hf Ht. destruct (find_task_in _ _ _ Hf) as [Hin _].
        unfold tasks_ok in B. rewrite Forall_forall in B. pose proof (B x Hin) as Hx. unfold plain_TP in Hx. rewrite Ht in Hx.
        destruct Hx as [Hk Hsg]. apply exec_plain; [exact A|apply ok_dequeue; unfold tasks_ok; rewrite Forall_forall; exact B|exact Hk|exact Hsg].
    - intros st g _ [A B]. split; [unfold complete_gate; apply ps_wake_all; exact A|apply (complete_gate_tasks_ok (plain_TP P) (plain_TP_wake P)); exact B].
    - intros st _ [A B]. split; [apply ps_cancel_task; exact A|apply (ok_cancel_task (plain_TP P) (plain_TP_cancel_ready P) (plain_TP_cancel_wait P)); exact B].
  Qed.
End StaysPlain.
