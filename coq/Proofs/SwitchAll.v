(* ALL programs, every schedule: the case recorded for a switch is the case labelled with the value its decision node stored, and
   the value a consumer receives for a switch parameter is the stored result of that recorded case (C09). *)
From MLPE Require Import Engine.Run Proofs.Micro Proofs.StackAll Proofs.StoreAll.

Section SwitchAll.
  Variable P : prog.

  Definition sel_ok (tr : list obs) (n : key) (lbl : value) (c : key) : Prop :=
    switch_case_for P n lbl = Some c /\ exists dn, switch_decider P n = Some dn /\ In (OSetResult dn lbl) tr.
  Definition SwI (st : mstate) : Prop :=
    forall n lbl c, get_switch n (st_store st) = Some (lbl, c) -> sel_ok (st_trace st) n lbl c.
  Lemma sel_ok_mono new tr n l c : sel_ok tr n l c -> sel_ok (new ++ tr) n l c.
  Proof. intros [A [dn [B C]]]. split; [exact A|]. exists dn. split; [exact B|apply in_or_app; right; exact C]. Qed.

  Lemma case_for_is_str n lbl c : switch_case_for P n lbl = Some c -> exists l, lbl = VStr l.
  Proof. unfold switch_case_for. destruct lbl; try discriminate. eauto. Qed.

  Lemma label_was_stored st dn l :
    Istore st -> get_result dn false (st_store st) = VStr l -> In (OSetResult dn (VStr l)) (st_trace st).
  Proof.
    intros HI E. unfold get_result, get_result_opt in E. cbn [negb andb] in E.
    destruct (mem key_eqb dn (s_res_hidden (st_store st))); [discriminate E|].
    destruct (alookup key_eqb dn (s_results (st_store st))) as [v|] eqn:El; [|discriminate E]. subst v. apply HI. exact El.
  Qed.

  Theorem creach_switch : forall st c, creach P st c -> SwI st.
  Proof.
    apply (creach_state_inv P SwI).
    - intros n l c Hl. discriminate Hl.
    - intros a b (Es & _ & Et & _) Ha n l c. rewrite Es, Et. apply Ha.
    - intros st t fr rest sg Hc HS n l c Hl. destruct (step_changes P t fr sg st) as ([new Etr] & _ & S & _). rewrite Etr.
      destruct (S n l c Hl) as [E|(_ & Hcase & ->)]; [apply sel_ok_mono; exact (HS n l c E)|].
      (* _run_switch looks the label up in the case table: it is a string, so there is a decision node and that node stored it *)
      split; [exact Hcase|]. destruct (case_for_is_str _ _ _ Hcase) as [s El]. destruct (switch_decider P n) as [dn|]; [|discriminate El].
      exists dn. split; [reflexivity|]. rewrite El. apply in_or_app. right. exact (label_was_stored st dn s (creach_store P _ _ Hc) El).
  Qed.
End SwitchAll.

Theorem switch_selection_follows_the_case_table_all_programs P :
  forall st, reachable P st ->
    forall n lbl c, get_switch n (st_store st) = Some (lbl, c) ->
      switch_case_for P n lbl = Some c /\ exists dn, switch_decider P n = Some dn /\ In (OSetResult dn lbl) (st_trace st).
Proof. intros st Hr. exact (creach_switch P st None (reachable_creach P st Hr)). Qed.
