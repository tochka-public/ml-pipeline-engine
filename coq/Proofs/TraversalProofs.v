(* The builder's work-list traversal examines exactly what the output needs: every node reachable from the output
   through declared marks (and the implicit link of un-marked nodes to the input node) is popped, i.e. validated
   and translated. Needed by C15 (nothing declared is dropped) and C16 (a defect anywhere reachable is seen). *)
From MLPE Require Import Pure.Builder.

Definition mark_visits (mk : mark) : list nat :=
  match mk with
  | MIn m => [m]
  | MSw d cases => d :: map snd cases
  | MOneOf cs => cs
  | MRec _ d _ => [d]
  end.

Definition params_of (ds : decls) (i : nat) : list (pname * mark) :=
  match nth_opt ds i with Some nd => ns_params nd | None => [] end.

(* the nodes the traversal pushes while translating node i *)
Definition deps_v (ds : decls) (inp i : nat) : list nat :=
  match params_of ds i with
  | [] => if Nat.eqb inp i then [] else [inp]
  | ps => flat_map (fun pm => mark_visits (snd pm)) ps
  end.

Definition visits (l : list nat) (sv : list nat * list nat) : list nat * list nat := fold_left (fun s m => visit m s) l sv.

Lemma visits_app a b sv : visits (a ++ b) sv = visits b (visits a sv).
Proof. unfold visits. apply fold_left_app. Qed.

(* the loops over switch cases and one-of candidates thread (graph, node map, work list) through independent updates *)
Lemma fold_triple {A} (fg : A -> graph -> graph) (fm : A -> list nat -> list nat) (fv : A -> nat) l : forall g mp sv,
  fold_left (fun (acc : graph * list nat * (list nat * list nat)) x =>
               let '(g, mp, sv) := acc in (fg x g, fm x mp, visit (fv x) sv)) l (g, mp, sv)
  = (fold_left (fun g x => fg x g) l g, fold_left (fun mp x => fm x mp) l mp, visits (map fv l) sv).
Proof. induction l as [|x r IH]; intros g mp sv; simpl; [reflexivity|]. apply IH. Qed.

Lemma apply_mark_sv inp cur idx p mk b :
  bs_sv (apply_mark inp cur idx p mk b) = visits (mark_visits mk) (bs_sv b)
  /\ bs_pop (apply_mark inp cur idx p mk b) = bs_pop b.
Proof.
  destruct mk as [m | d cases | cs | s d mx]; simpl.
  - split; reflexivity.
  - erewrite fold_triple. split; reflexivity.
  - erewrite fold_triple. simpl. rewrite map_id. split; reflexivity.
  - split; reflexivity.
Qed.

Lemma apply_marks_sv inp cur ps : forall idx b,
  bs_sv (apply_marks inp cur idx ps b) = visits (flat_map (fun pm => mark_visits (snd pm)) ps) (bs_sv b)
  /\ bs_pop (apply_marks inp cur idx ps b) = bs_pop b.
Proof.
  induction ps as [|[p mk] r IH]; intros idx b; simpl; [split; reflexivity|].
  destruct (IH (S idx) (apply_mark inp cur idx p mk b)) as [H1 H2].
  destruct (apply_mark_sv inp cur idx p mk b) as [A1 A2].
  rewrite H1, H2, A1, A2, visits_app. split; reflexivity.
Qed.

Lemma visit_node_sv ds inp cur b :
  bs_sv (visit_node ds inp cur b) = visits (deps_v ds inp cur) (bs_sv b)
  /\ bs_pop (visit_node ds inp cur b) = bs_pop b.
Proof.
  unfold visit_node, deps_v, params_of. destruct (nth_opt ds cur) as [nd|]; simpl.
  - destruct (ns_params nd) as [|pm r] eqn:Ep.
    + destruct (Nat.eqb inp cur); simpl; split; reflexivity.
    + destruct (apply_marks_sv inp cur (pm :: r) 0
                  {| bs_g := bs_g b; bs_map := map_add cur (bs_map b); bs_recs := bs_recs b; bs_synth := bs_synth b;
                     bs_sv := bs_sv b; bs_pop := bs_pop b |}) as [H1 H2].
      rewrite H1, H2. split; reflexivity.
  - destruct (Nat.eqb inp cur); simpl; split; reflexivity.
Qed.

Lemma mem_nat_iff m l : mem Nat.eqb m l = true <-> In m l.
Proof. apply mem_true_iff. intros a b. apply Nat.eqb_eq. Qed.

Lemma visit_in m st vis : In m vis -> visit m (st, vis) = (st, vis).
Proof. intros H. unfold visit. rewrite (proj2 (mem_nat_iff m vis) H). reflexivity. Qed.

Lemma visit_notin m st vis : ~ In m vis -> visit m (st, vis) = (m :: st, vis ++ [m]).
Proof.
  intros H. unfold visit. destruct (mem Nat.eqb m vis) eqn:E; [|reflexivity].
  apply mem_nat_iff in E. contradiction.
Qed.

(* [visits] pushes, one after the other, the nodes not seen before *)
Lemma visits_ind (Q : list nat * list nat -> Prop) :
  (forall m st vis, ~ In m vis -> Q (st, vis) -> Q (m :: st, vis ++ [m])) -> forall l sv, Q sv -> Q (visits l sv).
Proof.
  intros Hq. induction l as [|m r IH]; intros [st vis] H; [exact H|].
  change (visits (m :: r) (st, vis)) with (visits r (visit m (st, vis))). apply IH.
  destruct (in_dec Nat.eq_dec m vis) as [Hm|Hm]; [rewrite (visit_in m st vis Hm); exact H|].
  rewrite (visit_notin m st vis Hm). apply Hq; assumption.
Qed.

Lemma visits_visited l st vis i : In i vis -> In i (snd (visits l (st, vis))).
Proof.
  intros Hv. apply (visits_ind (fun sv => In i (snd sv))); [|exact Hv]. intros m st0 vis0 _ H. apply in_or_app. left. exact H.
Qed.

Lemma visits_stack_seen l st vis :
  (forall y, In y st -> In y vis) -> forall y, In y (fst (visits l (st, vis))) -> In y (snd (visits l (st, vis))).
Proof.
  intros Hs. apply (visits_ind (fun sv => forall y, In y (fst sv) -> In y (snd sv))); [|exact Hs].
  intros m st0 vis0 _ H z [->|Hz]; apply in_or_app; [right; left; reflexivity|left; apply H; exact Hz].
Qed.

Lemma visits_not_pushed l st vis i : In i vis -> ~ In i st -> ~ In i (fst (visits l (st, vis))).
Proof.
  intros Hv Hs. apply (visits_ind (fun sv => In i (snd sv) /\ ~ In i (fst sv)) ); [|split; assumption].
  intros m st0 vis0 Hm [Hi Hn]. split; [apply in_or_app; left; exact Hi|]. intros [->|Hx]; contradiction.
Qed.

Lemma visits_nodup l st vis :
  NoDup st -> (forall y, In y st -> In y vis) -> NoDup (fst (visits l (st, vis))).
Proof.
  intros Hn Hs. apply (visits_ind (fun sv => NoDup (fst sv) /\ forall y, In y (fst sv) -> In y (snd sv))); [|split; assumption].
  intros m st0 vis0 Hm [N0 H0]. split; [constructor; [intros Hx; apply Hm, H0, Hx|exact N0]|].
  intros z [->|Hz]; apply in_or_app; [right; left; reflexivity|left; apply H0; exact Hz].
Qed.

Lemma NoDup_snoc {A} (l : list A) x : NoDup l -> ~ In x l -> NoDup (l ++ [x]).
Proof.
  induction l as [|a l IH]; simpl; intros H Hn; [constructor; [intros []|constructor]|].
  inversion H as [|? ? Ha Hl]; subst. constructor.
  - intros Hin. apply in_app_iff in Hin. destruct Hin as [Hin|[->|[]]]; [contradiction|]. apply Hn. left. reflexivity.
  - apply IH; [exact Hl|]. intros Hx. apply Hn. right. exact Hx.
Qed.

Record wl_inv (stack visited popped : list nat) : Prop := {
  wi_split : forall x, In x visited <-> In x popped \/ In x stack;
  wi_nodup_stack : NoDup stack;
  wi_nodup_pop : NoDup popped;
  wi_disj : forall x, In x popped -> ~ In x stack
}.

Lemma wl_inv_pop cur rest vis pop : wl_inv (cur :: rest) vis pop -> wl_inv rest vis (pop ++ [cur]).
Proof.
  intros [H1 H2 H3 H4]. inversion H2 as [|? ? Hnin Hnd]; subst. constructor.
  - intros x. rewrite in_app_iff. simpl. rewrite H1. simpl. tauto.
  - exact Hnd.
  - apply NoDup_snoc; [exact H3|]. intros Hx. apply (H4 cur Hx). left. reflexivity.
  - intros x Hx Hs. apply in_app_iff in Hx. destruct Hx as [Hx|[->|[]]].
    + apply (H4 x Hx). right. exact Hs.
    + contradiction.
Qed.

Lemma visit_inv m st vis pop :
  wl_inv st vis pop ->
  wl_inv (fst (visit m (st, vis))) (snd (visit m (st, vis))) pop
  /\ In m (snd (visit m (st, vis))) /\ incl vis (snd (visit m (st, vis))).
Proof.
  intros [H1 H2 H3 H4]. destruct (in_dec Nat.eq_dec m vis) as [Hin|Hnin].
  - rewrite (visit_in m st vis Hin). simpl. split; [constructor; assumption|]. split; [exact Hin|apply incl_refl].
  - rewrite (visit_notin m st vis Hnin). simpl.
    split; [|split; [apply in_or_app; right; left; reflexivity|apply incl_appl, incl_refl]].
    constructor.
    + intros x. rewrite in_app_iff. simpl. rewrite H1. tauto.
    + constructor; [|exact H2]. intros Hs. apply Hnin. apply H1. right. exact Hs.
    + exact H3.
    + intros x Hx [->|Hs]; [apply Hnin; apply H1; left; exact Hx|exact (H4 x Hx Hs)].
Qed.

Lemma visits_inv l : forall st vis pop,
  wl_inv st vis pop ->
  wl_inv (fst (visits l (st, vis))) (snd (visits l (st, vis))) pop
  /\ incl l (snd (visits l (st, vis))) /\ incl vis (snd (visits l (st, vis))).
Proof.
  induction l as [|m r IH]; intros st vis pop H.
  - simpl. split; [exact H|]. split; [intros x []|apply incl_refl].
  - change (visits (m :: r) (st, vis)) with (visits r (visit m (st, vis))).
    destruct (visit_inv m st vis pop H) as [V1 [V2 V3]].
    destruct (visit m (st, vis)) as [st1 vis1]. simpl in V1, V2, V3.
    destruct (IH st1 vis1 pop V1) as [I1 [I2 I3]]. split; [exact I1|]. split.
    + intros x [->|Hx]; [apply I3; exact V2|apply I2; exact Hx].
    + eapply incl_tran; eassumption.
Qed.

Definition closed_under (ds : decls) (inp : nat) (popped visited : list nat) : Prop :=
  forall i, In i popped -> incl (deps_v ds inp i) visited.

Lemma loop_inv ds inp : forall fuel b,
  wl_inv (fst (bs_sv b)) (snd (bs_sv b)) (bs_pop b) ->
  closed_under ds inp (bs_pop b) (snd (bs_sv b)) ->
  let b' := build_loop fuel ds inp b in
  wl_inv (fst (bs_sv b')) (snd (bs_sv b')) (bs_pop b')
  /\ closed_under ds inp (bs_pop b') (snd (bs_sv b'))
  /\ incl (snd (bs_sv b)) (snd (bs_sv b'))
  /\ (fst (bs_sv b') = [] \/ length (bs_pop b') = length (bs_pop b) + fuel).
Proof.
  induction fuel as [|f IH]; intros b Hw Hc; simpl.
  - split; [exact Hw|]. split; [exact Hc|]. split; [apply incl_refl|]. right. lia.
  - destruct (bs_sv b) as [st vis] eqn:Esv. simpl in *. destruct st as [|cur rest].
    + rewrite Esv. simpl. split; [exact Hw|]. split; [exact Hc|]. split; [apply incl_refl|]. left. reflexivity.
    + set (b1 := {| bs_g := bs_g b; bs_map := bs_map b; bs_recs := bs_recs b; bs_synth := bs_synth b;
                    bs_sv := (rest, vis); bs_pop := bs_pop b ++ [cur] |}).
      destruct (visit_node_sv ds inp cur b1) as [V1 V2]. simpl in V1, V2.
      pose proof (wl_inv_pop cur rest vis (bs_pop b) Hw) as Hw1.
      pose proof (visits_inv (deps_v ds inp cur) rest vis (bs_pop b ++ [cur]) Hw1) as VI.
      destruct (visits (deps_v ds inp cur) (rest, vis)) as [st2 vis2] eqn:Ev. simpl in VI. destruct VI as [W2 [I2 I3]].
      pose proof V1 as Hsv.
      specialize (IH (visit_node ds inp cur b1)). rewrite Hsv, V2 in IH. simpl in IH.
      destruct IH as [A [B [C D]]].
      * exact W2.
      * intros i Hi. apply in_app_iff in Hi. destruct Hi as [Hi|[->|[]]].
        -- eapply incl_tran; [apply Hc; exact Hi|exact I3].
        -- exact I2.
      * split; [exact A|]. split; [exact B|]. split; [eapply incl_tran; eassumption|].
        destruct D as [D|D]; [left; exact D|right]. rewrite D, app_length. simpl. lia.
Qed.

Lemma visits_from l : forall st vis x, In x (snd (visits l (st, vis))) -> In x vis \/ In x l.
Proof.
  induction l as [|m r IH]; intros st vis x H; [left; exact H|].
  change (visits (m :: r) (st, vis)) with (visits r (visit m (st, vis))) in H.
  destruct (in_dec Nat.eq_dec m vis) as [Hin|Hnin].
  - rewrite (visit_in m st vis Hin) in H. destruct (IH st vis x H); [left; assumption|right; right; assumption].
  - rewrite (visit_notin m st vis Hnin) in H. destruct (IH _ _ x H) as [Hx|Hx]; [|right; right; exact Hx].
    apply in_app_iff in Hx. destruct Hx as [Hx|[->|[]]]; [left; exact Hx|right; left; reflexivity].
Qed.

Definition in_range (ds : decls) (inp out : nat) : Prop :=
  inp < length ds /\ out < length ds /\ forall i m, i < length ds -> In m (deps_v ds inp i) -> m < length ds.

Lemma loop_range ds inp out (R : in_range ds inp out) : forall fuel b,
  (forall x, In x (snd (bs_sv b)) -> x < length ds) -> (forall x, In x (fst (bs_sv b)) -> In x (snd (bs_sv b))) ->
  wl_inv (fst (bs_sv b)) (snd (bs_sv b)) (bs_pop b) ->
  forall x, In x (snd (bs_sv (build_loop fuel ds inp b))) -> x < length ds.
Proof.
  induction fuel as [|f IH]; intros b Hr Hs Hw x Hx; simpl in Hx; [apply Hr; exact Hx|].
  destruct (bs_sv b) as [st vis] eqn:Esv. simpl in *. destruct st as [|cur rest].
  - rewrite Esv in Hx. apply Hr. exact Hx.
  - set (b1 := {| bs_g := bs_g b; bs_map := bs_map b; bs_recs := bs_recs b; bs_synth := bs_synth b;
                  bs_sv := (rest, vis); bs_pop := bs_pop b ++ [cur] |}) in *.
    destruct (visit_node_sv ds inp cur b1) as [V1 V2]. simpl in V1, V2.
    pose proof (wl_inv_pop cur rest vis (bs_pop b) Hw) as Hw1.
    pose proof (visits_inv (deps_v ds inp cur) rest vis (bs_pop b ++ [cur]) Hw1) as VI.
    destruct (visits (deps_v ds inp cur) (rest, vis)) as [st2 vis2] eqn:Ev. simpl in VI. destruct VI as [W2 [I2 I3]].
    apply (IH (visit_node ds inp cur b1)); [| |rewrite V1, V2; exact W2|exact Hx].
    + rewrite V1. simpl. intros y Hy. pose proof (visits_from (deps_v ds inp cur) rest vis y) as F.
      rewrite Ev in F. destruct (F Hy) as [Hv|Hd]; [apply Hr; exact Hv|].
      destruct R as [_ [_ R3]]. apply (R3 cur y); [|exact Hd]. apply Hr. apply Hs. left. reflexivity.
    + rewrite V1. simpl. intros y Hy. apply W2. right. exact Hy.
Qed.

Lemma nodup_bounded n : forall l, NoDup l -> (forall x, In x l -> x < n) -> length l <= n.
Proof.
  intros l Hnd Hb. rewrite <- (seq_length n 0). apply NoDup_incl_length; [exact Hnd|].
  intros x Hx. apply in_seq. specialize (Hb x Hx). lia.
Qed.

Inductive reach (ds : decls) (inp src : nat) : nat -> Prop :=
| reach_refl : reach ds inp src src
| reach_step j k : reach ds inp src j -> In k (deps_v ds inp j) -> reach ds inp src k.

Local Opaque build_loop.

Theorem traversal_complete ds inp out :
  in_range ds inp out -> inp <> out ->
  forall i, reach ds inp out i -> In i (b_pop (build ds inp out)).
Proof.
  intros R Hne i Hreach. unfold build. destruct (Nat.eqb_spec inp out) as [E|_]; [contradiction|]. simpl.
  set (b0 := {| bs_g := graph0; bs_map := [inp]; bs_recs := []; bs_synth := []; bs_sv := ([out], [out]); bs_pop := [] |}).
  assert (W0 : wl_inv (fst (bs_sv b0)) (snd (bs_sv b0)) (bs_pop b0)).
  { simpl. constructor; [intros x; simpl; tauto|constructor; [intros []|constructor]|constructor|intros x []]. }
  assert (C0 : closed_under ds inp (bs_pop b0) (snd (bs_sv b0))) by (intros x []).
  destruct (loop_inv ds inp (S (length ds)) b0 W0 C0) as [A [B [C D]]].
  assert (Hrange : forall x, In x (snd (bs_sv (build_loop (S (length ds)) ds inp b0))) -> x < length ds).
  { apply (loop_range ds inp out R); [| |exact W0].
    - simpl. intros x [<-|[]]. apply R.
    - simpl. tauto. }
  set (bf := build_loop (S (length ds)) ds inp b0) in *.
  assert (Hempty : fst (bs_sv bf) = []).
  { destruct D as [D|D]; [exact D|]. exfalso. simpl in D.
    assert (length (bs_pop bf) <= length ds).
    { apply nodup_bounded; [apply A|]. intros x Hx. apply Hrange. apply A. left. exact Hx. }
    lia. }
  assert (Hvp : forall x, In x (snd (bs_sv bf)) -> In x (bs_pop bf)).
  { intros x Hx. apply A in Hx. rewrite Hempty in Hx. destruct Hx as [Hx|[]]. exact Hx. }
  clearbody bf. clear D Hrange Hempty W0 C0.
  induction Hreach as [|j k Hr IHr Hk].
  - apply Hvp. apply C. simpl. left. reflexivity.
  - apply Hvp. apply (B j IHr). exact Hk.
Qed.

