(* What a certificate (Explore/Safe.v: certify = true) means for the real, history-carrying states of that program. *)
From MLPE Require Import Engine.Run Spec.Fragments Explore.StateEq Explore.Erase Explore.Safe.

Section Cert.
  Variable P : prog.

  Lemma andb3 a b c : a && b && c = true -> a = true /\ b = true /\ c = true.
  Proof. intros H. apply andb_true_iff in H. destruct H as [H ?]. apply andb_true_iff in H. destruct H. auto. Qed.

  Lemma full_parts c st :
    safe_full P c st = true ->
    deadlocked st = false /\ aborted st = false /\ safe_outcome P c st = true /\ safe_counts P st = true
    /\ safe_kwargs P st = true /\ safe_saves st = true /\ st_ready (quiesce P quiesce_bound st) = []
    /\ safe_events P st = true /\ (frag_Plain (p_decls P) = true -> safe_c06 P st = true).
  Proof.
    unfold safe_full, safe_all, safe_live, safe_quiesce. intros H.
    apply andb_true_iff in H. destruct H as [H H6]. apply andb_true_iff in H. destruct H as [H Hev].
    assert (H6' : frag_Plain (p_decls P) = true -> safe_c06 P st = true).
    { intros E. rewrite E in H6. exact H6. }
    apply andb3 in H. destruct H as [H [Hs Hq]]. apply andb_true_iff in H. destruct H as [H Hk].
    apply andb3 in H. destruct H as [Hl [Ho Hc]]. apply andb_true_iff in Hl. destruct Hl as [Hd Ha].
    apply negb_true_iff in Hd, Ha. destruct (st_ready (quiesce P quiesce_bound st)); [auto 12|discriminate].
  Qed.

  Lemma cert_full_reachable fuel st :
    certify P true fuel (safe_full P true) = true -> reachable P st -> safe_full P true st = true.
  Proof.
    intros Hc Hr. pose proof (certify_sound P true fuel _ Hc st (reachable_by_true P st Hr)) as H.
    unfold safe_full in *. rewrite safe_all_erase, safe_saves_erase, safe_quiesce_erase in H. exact H.
  Qed.

  Lemma cert_term_reachable fuel st :
    certify P true fuel (safe_term P) = true -> reachable P st ->
    deadlocked st = false /\ aborted st = false /\ st_ready (quiesce P quiesce_bound st) = [].
  Proof.
    intros Hc Hr. pose proof (certify_sound P true fuel _ Hc st (reachable_by_true P st Hr)) as H.
    unfold safe_term in H. rewrite safe_live_erase, safe_quiesce_erase in H. unfold safe_live, safe_quiesce in H.
    apply andb_true_iff in H. destruct H as [Hl Hq]. apply andb_true_iff in Hl. destruct Hl as [Hd Ha].
    apply negb_true_iff in Hd, Ha. destruct (st_ready (quiesce P quiesce_bound st)); [auto|discriminate].
  Qed.

  Lemma cert_outcome_nc fuel sched r :
    certify P false fuel (safe_outcome P false) = true ->
    forallb (act_ok false) sched = true -> main_state (run_sched P sched) = Some (TDone r) -> outcome_ok P false r = true.
  Proof.
    intros Hc Hs Hm. pose proof (certify_sound P false fuel _ Hc _ (run_sched_reachable_by P false sched Hs)) as H.
    rewrite safe_outcome_erase in H. unfold safe_outcome in H. rewrite Hm in H. exact H.
  Qed.

  Lemma alookup_found {K V} (eqb : K -> K -> bool) k (l : list (K * V)) v :
    alookup eqb k l = Some v -> exists k', In (k', v) l /\ eqb k k' = true.
  Proof.
    induction l as [|[k' v'] r IH]; cbn; [discriminate|]. destruct (eqb k k') eqn:E.
    - intros H. inversion H; subst. exists k'. split; [left; reflexivity|exact E].
    - intros H. destruct (IH H) as [k2 [Hin He]]. exists k2. split; [right; exact Hin|exact He].
  Qed.

  Lemma safe_counts_bound st i : safe_counts P st = true -> ctr_get (CBody i) st <= ref_invocations P i.
  Proof.
    unfold safe_counts, ctr_get. intros H. destruct (alookup ctr_eqb (CBody i) (st_ctrs st)) as [k|] eqn:E; [|lia].
    destruct (alookup_found _ _ _ _ E) as [c [Hin He]]. rewrite forallb_forall in H. specialize (H _ Hin). cbn in H.
    destruct c; try discriminate He. cbn in He. apply Nat.eqb_eq in He. subst. apply Nat.leb_le. exact H.
  Qed.

  Lemma outcome_value c v : outcome_ok P c (SVal v) = true -> ref_res P = ROk v.
  Proof. unfold outcome_ok. destruct (ref_res P) as [v'|cs]; [|discriminate]. intros H. apply value_seqb_sound in H. subst. reflexivity. Qed.
End Cert.

From MLPE Require Import Catalogue.Programs Catalogue.Certified.

Lemma certified_facts P st :
  certified_full P -> reachable P st ->
  deadlocked st = false /\ aborted st = false /\ safe_outcome P true st = true /\ safe_counts P st = true
  /\ safe_kwargs P st = true /\ safe_saves st = true /\ st_ready (quiesce P quiesce_bound st) = []
  /\ safe_events P st = true /\ (frag_Plain (p_decls P) = true -> safe_c06 P st = true).
Proof. intros [fuel [H _]] Hr. exact (full_parts P true st (cert_full_reachable P fuel st H Hr)). Qed.

Lemma certified_outcome_without_cancel P sched r :
  certified_full P -> forallb (act_ok false) sched = true -> main_state (run_sched P sched) = Some (TDone r) ->
  outcome_ok P false r = true.
Proof. intros [fuel [_ H]]. apply (cert_outcome_nc P fuel). exact H. Qed.

Lemma in_clean_certified P : In P catalogue_clean -> certified_full P.
Proof. intros H. pose proof catalogue_clean_certified as F. rewrite Forall_forall in F. apply F. exact H. Qed.

(* membership in a literal list, by syntactic search (no normalisation of the programs) *)
Ltac in_catalogue :=
  unfold catalogue_clean, catalogue_faulty; cbn [In];
  repeat match goal with
         | |- ?x = ?x \/ _ => left; reflexivity
         | |- ?x = ?x => reflexivity
         | |- _ \/ _ => right
         end.
