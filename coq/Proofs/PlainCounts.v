(* Plain programs, every schedule, while manager.run is pending: a node's body is invoked at most `attempts` times in total
   (C12 / C04): the number of body invocations of node i in the history equals the number of attempts the retry loop of its
   (only) execution has made, and never exceeds the configured number of attempts. *)
From MLPE Require Import Engine.Run Proofs.StackInv Proofs.PlainWorld Proofs.PlainStep Proofs.PlainLaunch Proofs.PlainLive Proofs.Micro Proofs.PlainBase Proofs.PlainCore Proofs.PlainInv Proofs.StackAll Proofs.PlainRoles Proofs.PlainExec Proofs.PlainTasks Proofs.PlainArgs Proofs.PlainPipe Proofs.RetryAll Proofs.AssocLemmas.
Require Import ZArith.

Definition is_start_of (i : nat) (o : obs) : bool := match o with OStart j _ _ => Nat.eqb j i | _ => false end.
Definition starts (i : nat) (tr : list obs) : nat := cnt (is_start_of i) tr.

(* number of invocations the loop of this execution has made when it is at frame f *)
Definition made (f : frame) : option (nat * nat) :=
  match f with
  | FRetry i _ _ att => Some (i, att - 1)
  | FRetryAfterBody i _ att | FRetryAfterEmit i _ att | FRetryAfterSleep i _ att => Some (i, att)
  | _ => None
  end.
Definition is_pre (f : frame) : bool := match f with FNodeStart _ _ _ | FExecStart _ _ _ | FExecAfterStart _ _ _ => true | _ => false end.
Definition invokes (fr : frame) (sg : signal) : bool := match fr, sg with FRetry _ false _ _, SGo => true | _, _ => false end.
Definition delta (fr : frame) (sg : signal) : nat := if invokes fr sg then 1 else 0.

Lemma invokes_retry fr sg : invokes fr sg = true -> exists i kw att, fr = FRetry i false kw att /\ sg = SGo.
Proof. destruct fr; try discriminate. destruct force; try discriminate. destruct sg; try discriminate. eauto. Qed.
Lemma owner_made nm f i q : owner nm f = true -> made f = Some (i, q) -> exists m, nm = TNNode m /\ i = real_index m.
Proof.
  destruct f; cbn [made]; intros Ho H; try discriminate H; inversion H; subst; destruct nm; try discriminate Ho; cbn in Ho;
    apply Nat.eqb_eq in Ho; eauto.
Qed.

Fixpoint count_made (k : list frame) : nat :=
  match k with [] => 0 | f :: r => (match made f with Some _ => 1 | None => 0 end) + count_made r end.
Lemma count_made_app a b : count_made (a ++ b) = count_made a + count_made b.
Proof. induction a as [|f r IH]; [reflexivity|]. cbn [app count_made]. rewrite IH. lia. Qed.
Lemma count_made_zero k f : count_made k = 0 -> In f k -> made f = None.
Proof.
  induction k as [|g r IH]; [contradiction|]. cbn [count_made]. intros H [<-|Hin]; [destruct (made g); [lia|reflexivity]|].
  apply IH; [destruct (made g); lia|exact Hin].
Qed.

Section CountSteps.
  Variable P : prog.

  Lemma plain_step_made t fr sg st f i q :
    (forall j f0 kw att, fr = FRetry j f0 kw att -> 1 <= att) ->
    In f (dir_frames (snd (step_frame P t fr sg st))) -> made f = Some (i, q) ->
    (exists d n fc, fr = FExecAfterStart d n fc /\ i = real_index n /\ q = 0) \/
    (exists q', made fr = Some (i, q') /\ q = q' + delta fr sg).
  Proof.
    intros Hge Hin Hr. destruct (step_pushed P t fr sg st f Hin) as [k' [Hp Hf]].
    destruct Hp; cbn [In] in Hf; repeat (destruct Hf as [<-|Hf]); try contradiction; try discriminate Hr; inversion Hr; subst.
    all: try (left; do 3 eexists; repeat split; reflexivity).
    all: right; cbn [made delta invokes]; eexists; split; [reflexivity|].
    all: try lia.
    all: match goal with |- ?q = _ => pose proof (Hge _ _ _ _ eq_refl); lia end.
  Qed.

  Lemma plain_step_pre t fr sg st f :
    plain_frame P fr = true -> clean_sig sg -> PS st ->
    In f (dir_frames (snd (step_frame P t fr sg st))) -> is_pre f = true -> is_start_frame fr = true.
  Proof.
    intros Hf Hs Hst. rewrite (step_dir P t fr sg st Hf Hs Hst).
    plain_cases fr sg Hf Hs; unfold emit_frames; cbn [snd dir_frames]; intros Hin Hr;
      repeat (destruct Hin as [Hin|Hin]; [subst f; cbn [is_pre] in Hr; try discriminate Hr; reflexivity|]); try contradiction.
  Qed.

  Lemma plain_step_invokes t i kw att st :
    st_trace (fst (step_frame P t (FRetry i false kw att) SGo st)) = OStart i (ctr_get (CBody i) st) kw :: st_trace st.
  Proof. cbn [step_frame]. destruct (ns_mode (nspec_of P i)); reflexivity. Qed.

  Lemma plain_step_starts t fr sg st j :
    plain_frame P fr = true -> clean_sig sg -> PS st ->
    starts j (st_trace (fst (step_frame P t fr sg st))) =
    starts j (st_trace st) + (match made fr with Some (i, _) => if Nat.eqb i j then delta fr sg else 0 | None => 0 end).
  Proof.
    intros Hf Hs Hst. unfold delta. destruct (invokes fr sg) eqn:Ei.
    - destruct (invokes_retry fr sg Ei) as [i [kw [att [-> ->]]]]. rewrite plain_step_invokes. unfold starts. rewrite cnt_cons.
      cbn [is_start_of made]. destruct (Nat.eqb i j); lia.
    - assert (E : starts j (st_trace (fst (step_frame P t fr sg st))) = starts j (st_trace st)).
      { destruct (plain_step_records P t fr sg st Hf Hs Hst) as [->|[o [-> Ho]]]; [reflexivity|]. unfold starts. rewrite cnt_cons.
        destruct Ho; try reflexivity. discriminate Ei. }
      rewrite E. destruct (made fr) as [[i q]|]; [destruct (Nat.eqb i j)|]; lia.
  Qed.

  Lemma plain_step_made_count t fr sg st :
    count_made (dir_frames (snd (step_frame P t fr sg st))) <=
    (match made fr with Some _ => 1 | None => match fr with FExecAfterStart _ _ _ => 1 | _ => 0 end end).
  Proof. destruct (step_pushes P t fr sg st) as [[s' ->]|Hp]; [apply Nat.le_0_l|]. destruct Hp; cbn [count_made made]; lia. Qed.
End CountSteps.

Section CountInv.
  Variable P : prog.
  Notation G := (b_graph (build (p_decls P) (p_inp P) (p_out P))).
  Hypothesis Hsw : forall n, is_switch G n = false.
  Hypothesis Hhd : forall n, is_head G n = false.
  Hypothesis Hbody : forall i kw a v, p_body P i kw a = OVal v -> clean v = true.
  Notation order := (p_order P (maind P)).
  Hypothesis Hnd : NoDup order.
  Hypothesis Hatt : forall i, (1 <= pol_attempts (nspec_of P i))%Z.
  Hypothesis HKN : forall n, In n order -> n = KN (real_index n).

  Definition A (i : nat) : nat := Z.to_nat (pol_attempts (nspec_of P i)).

  Definition PhiC (st : mstate) (i : idt) (ts : tstate frame) : Prop :=
    forall m, snd (fst i) = TNNode m ->
      let c := starts (real_index m) (st_trace st) in
      (forall f j q, In f (estack ts) -> made f = Some (j, q) -> j = real_index m /\ c = q) /\
      (existsb is_pre (estack ts) = true -> c = 0 /\ count_made (estack ts) = 0) /\
      count_made (estack ts) <= 1 /\
      c <= A (real_index m).

  Definition globC (st : mstate) : Prop :=
    forall i, (forall n, In n (node_names st) -> real_index n <> i) -> starts i (st_trace st) = 0.

  Definition countI (st : mstate) (c : running) : Prop := guard st \/ (globC st /\ allT (PhiC st) st c).

  Lemma PhiC_wake st : wake_closed (PhiC st).
  Proof. intros i w k H m Hm. exact (H m Hm). Qed.
  Lemma PhiC_ext a b i ts : same_core a b -> PhiC a i ts -> PhiC b i ts.
  Proof. unfold PhiC. intros (_ & _ & -> & _). auto. Qed.
  Lemma globC_ext a b : same_core a b -> globC a -> globC b.
  Proof. unfold globC, node_names. intros (_ & _ & -> & -> & _). auto. Qed.

  Lemma idx_inj m m' : In m order -> In m' order -> real_index m = real_index m' -> m = m'.
  Proof. intros H H' E. rewrite (HKN m H), (HKN m' H'), E. reflexivity. Qed.

  Lemma countA_step st t fr rest sg :
    base P st (Some (t, fr :: rest, sg)) ->
    globR st -> allT (PhiR P st) st (Some (t, fr :: rest, sg)) ->
    NoDup (node_names (fst (step_frame P t fr sg st))) ->
    (forall m, In m (node_names (fst (step_frame P t fr sg st))) -> In m order) ->
    stack_att P (fr :: rest) ->
    globC st -> allT (PhiC st) st (Some (t, fr :: rest, sg)) ->
    leaves_run fr sg (snd (step_frame P t fr sg st)) = false ->
    globC (fst (step_frame P t fr sg st)) /\
    allT (PhiC (fst (step_frame P t fr sg st)))
         (fst (after_step t rest (step_frame P t fr sg st))) (snd (after_step t rest (step_frame P t fr sg st))).
  Proof.
    intros Hb HG HA Hnd1 Hord1 Hatt0 GC HC Hlr.
    destruct (base_running P _ _ _ _ _ Hb) as (x0 & Hf0 & Hin0 & Hid0 & Kf & Kr & Hs & Of & Or & Hc).
    pose proof (b_ps _ _ _ Hb) as Hps. pose proof (in_names _ _ Hin0) as Hnm0.
    pose proof (fun m => node_names_step P t fr sg st m Kf Hs Hps) as Hnn.
    assert (Hge : forall j f0 kw att, fr = FRetry j f0 kw att -> 1 <= att /\ att <= A j).
    { intros j f0 kw att ->. destruct (Hatt0 _ (or_introl eq_refl)) as [H1 H2]. split; [exact H1|unfold A; lia]. }
    assert (Hoth : forall nm j, owner nm fr = true -> (forall m, nm = TNNode m -> real_index m <> j) ->
                                starts j (st_trace (fst (step_frame P t fr sg st))) = starts j (st_trace st)).
    { intros nm j Onm Hj. rewrite (plain_step_starts P t fr sg st j Kf Hs Hps). destruct (made fr) as [[i q]|] eqn:E; [|lia].
      destruct (owner_made _ _ _ _ Onm E) as [m [-> ->]]. destruct (Nat.eqb_spec (real_index m) j) as [E'|_]; [destruct (Hj m eq_refl E')|lia]. }
    assert (Hown : forall m, owner (TNNode m) fr = true ->
                             starts (real_index m) (st_trace (fst (step_frame P t fr sg st))) = starts (real_index m) (st_trace st) + delta fr sg).
    { intros m Om. rewrite (plain_step_starts P t fr sg st _ Kf Hs Hps). destruct (made fr) as [[i q]|] eqn:E.
      - destruct (owner_made _ _ _ _ Om E) as [m' [Em ->]]. inversion Em. rewrite Nat.eqb_refl. reflexivity.
      - destruct fr; try discriminate E; reflexivity. }
    split.
    -
      intros i Hno. rewrite (Hoth (t_name x0) i Of); [apply GC; intros n Hn; apply Hno, Hnn, Hn|].
      intros m Enm. apply Hno, Hnn, node_names_in. rewrite <- Enm. exact Hnm0.
    - apply (allT_node_step P Hsw Hhd _ _ st t fr rest sg Hb Hnd1 Hlr HC (PhiC_wake st)).
      + (* the task the step creates: no node with a task has its index *)
        intros n Hn. destruct (creates_node P Hnd st t fr rest sg n Hb HA Hn) as (_ & Hnot & Hon).
        assert (Hc0 : starts (real_index n) (st_trace st) = 0).
        { apply GC. intros n' Hn' E. apply Hnot. rewrite <- (idx_inj n' n (roles_in_order P _ _ _ HG HA Hn') Hon E). exact Hn'. }
        cbn [estack existsb is_pre count_made made]. split; [intros f j q [<-|[]] Hq; discriminate Hq|].
        split; [intros _; split; [exact Hc0|reflexivity]|]. split; [lia|]. rewrite Hc0. lia.
      +
        intros nm m ts Onm Hnm Hne Hm1 HB. cbn beta zeta in *.
        rewrite (Hoth nm (real_index m) Onm); [exact HB|]. intros m0 -> E. apply Hne. f_equal.
        apply idx_inj; [apply (roles_in_order P _ _ _ HG HA), node_names_in, Hnm|apply Hord1, node_names_in, Hm1|exact E].
      +
        intros m Om Orm Hm. pose proof (Hm _ HC) as HW. cbn beta zeta in HW |- *. destruct HW as (W1 & W2 & W3 & W4).
        cbn [estack count_made] in W1, W2, W3.
        pose proof (plain_step_made_count P t fr sg st) as Hcnt.
        rewrite estack_nstate, count_made_app, (Hown m Om).
        (* a frame that invokes is the retry frame, the only frame of the loop on the stack *)
        assert (Hinv : delta fr sg = 0 \/ delta fr sg = 1 /\ count_made rest = 0 /\ exists kw att, fr = FRetry (real_index m) false kw att).
        { unfold delta. destruct (invokes fr sg) eqn:Ei; [right|left; reflexivity].
          destruct (invokes_retry fr sg Ei) as [i [kw [att [-> ->]]]]. destruct (W1 _ i (att - 1) (or_introl eq_refl) eq_refl) as [-> _].
          cbn [made] in W3. split; [reflexivity|]. split; [lia|eauto]. }
        split; [|split; [|split]].
        * intros f j q Hf Hq. apply in_app_or in Hf. destruct Hf as [Hf|Hf].
          -- destruct (plain_step_made P t fr sg st f j q (fun j f0 kw att E => proj1 (Hge j f0 kw att E)) Hf Hq)
               as [[d [n [fc (-> & -> & ->)]]]|[q' (Hq' & ->)]].
             ++ (* the loop is entered: nothing has been invoked *)
                rewrite (owner_eas _ _ _ _ Om). destruct (W2 eq_refl) as [-> _]. split; reflexivity.
             ++ destruct (W1 fr j q' (or_introl eq_refl) Hq') as [-> ->]. split; reflexivity.
          -- destruct (W1 f j q (or_intror Hf) Hq) as [-> ->]. split; [reflexivity|].
             destruct Hinv as [->|(_ & Hr0 & _)]; [lia|]. pose proof (count_made_zero rest f Hr0 Hf) as Hn. congruence.
        * intros Hpre. rewrite existsb_app in Hpre. apply orb_true_iff in Hpre.
          (* a frame before the loop on the new stack: there was one already, and the frame that ran is not FExecAfterStart *)
          assert (Hpre0 : existsb is_pre (fr :: rest) = true /\ forall d n fc, fr <> FExecAfterStart d n fc).
          { destruct Hpre as [Hpre|Hpre].
            - apply existsb_exists in Hpre. destruct Hpre as [f [Hf Hpf]]. pose proof (plain_step_pre P t fr sg st f Kf Hs Hps Hf Hpf) as Hsf.
              split; [|intros d n fc ->; discriminate Hsf]. destruct fr; try discriminate Hsf; reflexivity.
            - split; [cbn [existsb]; rewrite Hpre; apply orb_true_r|]. intros d n fc ->.
              (* below FExecAfterStart there is only _run_node's frame *)
              apply existsb_exists in Hpre. destruct Hpre as [f [Hf Hpf]].
              destruct rest as [|g r]; [contradiction|]. cbn [chainb] in Hc. apply andb_true_iff in Hc. destruct Hc as [Hc1 Hc2].
              destruct g; try discriminate Hc1. cbn [forallb] in Orm. apply andb_true_iff in Orm. destruct Orm as [_ Or'].
              pose proof (knode_bottom m (FNodeAfterExec d0 n0) r eq_refl Or' Hc2) as ->. destruct Hf as [<-|[]]. discriminate Hpf. }
          destruct Hpre0 as [Hpre0 Hneas]. destruct (W2 Hpre0) as [Hc0 Hm0].
          destruct (made fr) eqn:Emf; [lia|].
          destruct Hinv as [->|(_ & _ & kw & att & Efr)]; [|rewrite Efr in Emf; discriminate Emf].
          split; [lia|]. destruct fr; try lia. destruct (Hneas _ _ _ eq_refl).
        * destruct (made fr) eqn:Emf; [lia|].
          destruct (is_pre fr) eqn:Epf.
          -- assert (Hp0 : existsb is_pre (fr :: rest) = true) by (cbn [existsb]; rewrite Epf; reflexivity).
             destruct (W2 Hp0) as [_ Hm0]. destruct fr; lia.
          -- destruct fr; try discriminate Epf; lia.
        * destruct Hinv as [->|(-> & _ & kw & att & ->)]; [lia|]. destruct (W1 _ _ (att - 1) (or_introl eq_refl) eq_refl) as [_ ->].
          destruct (Hge _ _ _ _ eq_refl). lia.
  Qed.

  Theorem creach_counts : forall st c, creach P st c -> countI st c.
  Proof.
    apply (creach_guarded P Hsw Hhd Hbody globC PhiC globC_ext PhiC_ext PhiC_wake).
    - intros st k s _ m Hm. discriminate Hm.
    - intros st w k _ m Hm. discriminate Hm.
    - intros i _. reflexivity.
    - intros m Hm. discriminate Hm.
    - intros st t fr rest sg H Hg0 Hg1 Hlr GC HC.
      destruct (unguard _ _ (creach_roles P Hsw Hhd Hbody _ _ H) Hg0) as [HG HA].
      destruct (unguard _ _ (creach_roles P Hsw Hhd Hbody _ _ (cr_step P st t fr rest sg H)) Hg1) as [HG' HA'].
      destruct (creach_attempts P Hatt _ _ H) as [_ Hatt0].
      assert (Hord1 : forall m, In m (node_names (fst (step_frame P t fr sg st))) -> In m order).
      { intros m Hm. apply (roles_in_order P _ _ m HG' HA'). unfold node_names in *. rewrite names_after_step. exact Hm. }
      exact (countA_step st t fr rest sg (creach_base P Hsw Hhd Hbody _ _ H) HG HA (nodup_next P Hsw Hhd Hbody Hnd st t fr rest sg H Hg1) Hord1 Hatt0 GC HC Hlr).
  Qed.
End CountInv.

Theorem plain_bodies_are_invoked_at_most_attempts_times P :
  plain_prog P -> NoDup (p_order P (maind P)) ->
  (forall i, (1 <= pol_attempts (nspec_of P i))%Z) ->
  (forall n, In n (p_order P (maind P)) -> n = KN (real_index n)) ->
  forall st, reachable P st -> over st = false -> main_done st = false ->
    forall i, starts i (st_trace st) <= Z.to_nat (pol_attempts (nspec_of P i)).
Proof.
  intros (Hg & Hb & _) Hnd Hatt HKN st Hr Ho Hm i. destruct (graph_plain_sound _ Hg) as [Hsw Hhd].
  destruct (creach_counts P Hsw Hhd Hb Hnd Hatt HKN st None (reachable_creach P st Hr)) as [[Hg'|Hg']|[GC HC]]; [congruence|congruence|].
  destruct (existsb (key_eqb (KN i)) (node_names st)) eqn:Ex.
  - apply existsb_exists in Ex. destruct Ex as [n [Hin En]]. apply key_eqb_spec in En. subst n.
    apply node_names_in in Hin. unfold names in Hin. apply in_map_iff in Hin. destruct Hin as [x [Hnm Hx]].
    destruct (allT_In _ _ _ x HC Hx (KN i) Hnm) as (_ & _ & _ & C4). exact C4.
  - assert (Hno : ~ In (KN i) (node_names st)).
    { intros Hin. assert (existsb (key_eqb (KN i)) (node_names st) = true) by (apply existsb_exists; exists (KN i); split; [exact Hin|apply key_eqb_spec; reflexivity]). congruence. }
    rewrite (GC i); [lia|]. intros n Hn E.
    destruct (creach_roles P Hsw Hhd Hb st None (reachable_creach P st Hr)) as [[Hg'|Hg']|[HG HA]]; [congruence|congruence|].
    pose proof (roles_in_order P _ _ n HG HA Hn) as Hon. apply Hno. rewrite (HKN n Hon), E in Hn. exact Hn.
Qed.
