(* ALL programs, every schedule: get_default is called only for a node declared with use_default=True (C12) -- also when the
   call is forced by an exhausted recurrent subgraph. *)
From MLPE Require Import Engine.Run Proofs.ExecLemmas Proofs.Micro Proofs.PlainLive Proofs.PlainCore Proofs.StackAll.

Section DefaultAll.
  Variable P : prog.

  Definition has_default (i : nat) : bool := ns_default (nspec_of P i).
  (* a forced execution (force=True: skip the body, call get_default) is only ever requested for a node with a default *)
  Definition df (f : frame) : bool :=
    match f with
    | FNodeStart _ n true | FExecStart _ n true | FExecAfterStart _ n true => has_default (real_index n)
    | FRetry i true _ _ => has_default i
    | _ => true
    end.
  Lemma step_df_frames t fr sg st : df fr = true -> forallb df (dir_frames (snd (step_frame P t fr sg st))) = true.
  Proof.
    intros Hf. destruct (step_pushes P t fr sg st) as [[s' ->]|Hp]; [reflexivity|].
    destruct Hp; cbn [forallb df andb] in *; rewrite ?andb_true_r; try reflexivity; try exact Hf.
    all: try (destruct force; [exact Hf|reflexivity]).
    all: match goal with Hq : (_ && _)%bool = true |- _ => apply andb_true_iff in Hq; exact (proj2 Hq) end.
  Qed.

  Definition df_TP (x : task frame) : Prop := forall f, In f (estack (t_state x)) -> df f = true.
  Definition defaults_ok (tr : list obs) : Prop := forall i kw, In (ODefault i kw) tr -> has_default i = true.

  Theorem creach_defaults : forall st c, creach P st c ->
    tasks_ok df_TP st /\ (match c with Some (_, k, _) => forall f, In f k -> df f = true | None => True end) /\ defaults_ok (st_trace st).
  Proof.
    apply (creach_frames_inv P (fun _ f => df f = true) defaults_ok); auto.
    - intros i kw [Hin|[]]. discriminate Hin.
    - intros st t fr rest sg _ B C. specialize (B fr (or_introl eq_refl)). destruct (step_obs P t fr sg st) as [new [Etr Hnew]]. split.
      + (* a task is created for an execution that is not forced *)
        intros f [Hs|Hin]; [|exact (proj1 (forallb_forall _ _) (step_df_frames t fr sg st B) f Hin)].
        destruct f; cbn [spawns] in Hs; try contradiction; try reflexivity. destruct Hs as (r & l & _ & _ & _ & ->). reflexivity.
      + rewrite Etr. intros i kw Hin. apply in_app_or in Hin. destruct Hin as [Hin|Hin]; [|exact (C i kw Hin)].
        destruct (Hnew _ Hin) as [[att ->]|[att [_ Hd]]]; [exact B|exact Hd].
  Qed.
End DefaultAll.

Theorem get_default_only_for_nodes_with_a_default_all_programs P :
  forall st, reachable P st -> forall i kw, In (ODefault i kw) (st_trace st) -> ns_default (nspec_of P i) = true.
Proof. intros st Hr. destruct (creach_defaults P st None (reachable_creach P st Hr)) as (_ & _ & H). exact H. Qed.
