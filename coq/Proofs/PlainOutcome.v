(* Plain programs: the value PipelineChart.run returns is the result stored for the output node while manager.run was pending --
   hence the value the output node's policy prescribes for its body applied to the final results of its inputs (PlainValues.v),
   and the same value under every schedule. *)
From MLPE Require Import Engine.Run Proofs.ExecLemmas Proofs.Evolve Proofs.StackInv Proofs.PlainWorld Proofs.PlainStep Proofs.PlainLive Proofs.Micro Proofs.PlainBase Proofs.PlainCore Proofs.PlainInv Proofs.StackAll Proofs.PlainExec Proofs.PlainDeadlock Proofs.PlainValues.

Definition last_kchart (k : list frame) : bool :=
  match k with [] => true | f :: r => match cls_of (last r f) with KChart => true | _ => false end end.

Lemma last_kchart_seg fr rest k' : seg_ok fr k' -> last_kchart (fr :: rest) = true -> last_kchart (k' ++ rest) = true.
Proof.
  intros [Hne [_ [Hl _]]] H. destruct k' as [|f k'']; [contradiction|]. cbn [app last_kchart] in *.
  destruct rest as [|g r].
  - rewrite app_nil_r. rewrite last_cons_default in Hl. cbn [last] in H. rewrite Hl. exact H.
  - rewrite (last_app_ne k'' (g :: r) f); [|discriminate]. rewrite last_cons_default in H. rewrite last_cons_default. exact H.
Qed.
Lemma last_kchart_tail fr rest : last_kchart (fr :: rest) = true -> last_kchart rest = true.
Proof. destruct rest as [|g r]; [reflexivity|]. cbn [last_kchart]. rewrite last_cons_default. auto. Qed.

Section Outcome.
  Variable P : prog.
  Notation G := (b_graph (build (p_decls P) (p_inp P) (p_out P))).
  Notation out := (b_output (build (p_decls P) (p_inp P) (p_out P))).
  Hypothesis Hsw : forall n, is_switch G n = false.
  Hypothesis Hhd : forall n, is_head G n = false.
  Hypothesis Hbody : forall i kw a v, p_body P i kw a = OVal v -> clean v = true.

  (* v is the result the output node had at some point while manager.run was pending *)
  Definition W (v : value) : Prop :=
    exists st0 c0, creach P st0 c0 /\ over st0 = false /\ main_done st0 = false /\
                   exists_result out (st_store st0) = true /\ get_result out true (st_store st0) = v.

  Definition PhiO (ts : tstate frame) : Prop :=
    last_kchart (estack ts) = true /\
    (forall v, In (FChartAfterEmitOk v) (estack ts) -> W v) /\
    (forall r v, ts = TReady (FChartAfterRun :: r) (SVal v) -> W v) /\
    (forall v, ts = TDone (SVal v) -> W v).

  Lemma PhiO_nonval ts k s : estack ts = k -> match s with SVal _ => False | _ => True end -> PhiO ts -> PhiO (TReady k s).
  Proof.
    intros <- Hs (A & B & _). split; [exact A|]. split; [exact B|].
    split; [intros r v E; inversion E; subst; destruct Hs|intros v E; discriminate E].
  Qed.

  Lemma plain_step_push_emit_ok t fr sg st v :
    plain_frame P fr = true -> clean_sig sg -> PS st ->
    In (FChartAfterEmitOk v) (dir_frames (snd (step_frame P t fr sg st))) -> fr = FChartAfterRun /\ sg = SVal v.
  Proof.
    intros Hf Hs Hst. rewrite (step_dir P t fr sg st Hf Hs Hst).
    plain_cases fr sg Hf Hs; cbn [snd dir_frames emit_frames]; intros Hin;
      repeat (destruct Hin as [Hin|Hin]; [try discriminate Hin; inversion Hin; subst; auto|]); try contradiction.
  Qed.

  Lemma plain_step_chart_ret t fr sg st v :
    plain_frame P fr = true -> clean_sig sg -> PS st -> cls_of fr = KChart ->
    snd (step_frame P t fr sg st) = DRet (SVal v) -> fr = FChartAfterEmitOk v.
  Proof.
    intros Hf Hs Hst. rewrite (step_dir P t fr sg st Hf Hs Hst).
    plain_cases fr sg Hf Hs; cbn [snd cls_of]; intros Hk H; try discriminate Hk; try discriminate H; inversion H; subst; reflexivity.
  Qed.

  Lemma owner_main_cls nm f : owner nm f = true -> nm = TNMain -> main_frame f = true.
  Proof. intros H ->. exact H. Qed.

  Lemma PhiO_step st fr rest sg :
    creach P st (Some (main_tid, fr :: rest, sg)) -> PhiO (TReady (fr :: rest) sg) ->
    PhiO (nstate rest (snd (step_frame P main_tid fr sg st))).
  Proof.
    intros H (L0 & L1 & L2 & L3). pose proof (creach_base P Hsw Hhd Hbody _ _ H) as Hb.
    destruct (b_cur _ _ _ Hb) as [x0 [Hf0 [Hk [Hs [_ [Hc [Hms [k0 [sg0 Hrdy]]]]]]]]]. specialize (Hms eq_refl).
    cbn [plain_stack main_stack forallb] in Hk, Hms. apply andb_true_iff in Hk, Hms. destruct Hk as [Kf _], Hms as [Hmf _].
    destruct (find_task_in _ _ _ Hf0) as [Hin0 Hid0]. pose proof (b_ps _ _ _ Hb) as Hps.
    pose proof (step_frame_dir_ok P main_tid fr sg st) as Hdo. cbn [estack] in L0, L1.
    unfold PhiO. rewrite estack_nstate. split; [|split; [|split]].
    - destruct (snd (step_frame P main_tid fr sg st)) as [w k'|k'|k' s'|s'] eqn:Ed; cbn [dir_frames dir_ok] in *;
        try (apply (last_kchart_seg fr); assumption). cbn [app]. apply (last_kchart_tail fr). exact L0.
    - intros v Hin. apply in_app_or in Hin. destruct Hin as [Hin|Hin]; [|apply L1; right; exact Hin].
      destruct (plain_step_push_emit_ok main_tid fr sg st v Kf Hs Hps Hin) as [-> ->]. exact (L2 rest v eq_refl).
    - intros r v Hn.
      destruct (snd (step_frame P main_tid fr sg st)) as [w k'|k'|k' s'|s'] eqn:Ed; cbn [nstate] in Hn.
      + discriminate Hn.
      + inversion Hn.
      + exfalso. destruct (k' ++ rest); [discriminate Hn|]. injection Hn as _ _ Es. rewrite Es in Ed.
        exact (plain_step_cont_go P main_tid fr sg st k' (SVal v) Kf Hs Hps Ed v eq_refl).
      + (* a value returned into FChartAfterRun comes from manager.run *)
        destruct rest as [|g rest']; [discriminate Hn|]. injection Hn as Eg Er Es. subst g r. rewrite Es in Ed. clear Es.
        assert (Haw : awaits_b FChartAfterRun (cls_of fr) = true) by (cbn [chainb] in Hc; apply andb_true_iff in Hc; apply Hc).
        assert (Efr : fr = FRunWait) by (destruct fr; try discriminate Hmf; try discriminate Haw; try reflexivity; destruct ev; destruct n; discriminate Haw).
        subst fr.
        assert (Hsg : sg = SGo \/ exists e, sg = SThrow e).
        { destruct sg; auto; eauto; cbn [step_frame] in Ed; discriminate Ed. }
        destruct Hsg as [->|[e ->]]; [|cbn [step_frame snd] in Ed; discriminate Ed].
        cbn [step_frame] in Ed. destruct (run_pred P st) eqn:Erp; [|discriminate Ed].
        destruct (task_errors st) as [|e0 es] eqn:Ete; cbn [snd] in Ed; [|discriminate Ed]. inversion Ed; subst v.
        exists st, (Some (main_tid, FRunWait :: FChartAfterRun :: rest', SGo)).
        split; [exact H|]. split.
        { destruct (over st) eqn:Eo; [|reflexivity]. exfalso. destruct (creach_late P Hsw Hhd Hbody _ _ H) as [Hl|HL]; [congruence|].
          pose proof (allT_run _ _ _ _ _ _ x0 HL Hin0 Hid0 Hid0) as Hy. discriminate Hy. }
        split.
        { unfold main_done, main_state. rewrite Hf0. cbn. rewrite Hrdy. reflexivity. }
        unfold run_pred in Erp. rewrite Ete in Erp. cbn in Erp. split; [exact Erp|reflexivity].
    - intros v Hn. destruct (nstate_done _ _ _ _ Hdo Hn) as [Hd ->]. cbn [last_kchart last] in L0.
      assert (Hkc : cls_of fr = KChart) by (destruct (cls_of fr); try discriminate L0; reflexivity).
      rewrite (plain_step_chart_ret main_tid fr sg st v Kf Hs Hps Hkc Hd) in L1. apply L1. left. reflexivity.
  Qed.

  Theorem creach_outcome : forall st c, creach P st c -> tasks_ok (fun x => t_id x = main_tid -> PhiO (t_state x)) st.
  Proof.
    intros st c H.
    apply (creach_tstate_inv P (fun _ i ts => i = main_tid -> PhiO ts) (fun _ => True)) with (c := c); try exact H; auto.
    - intros _ i w k Hp Hi. exact (PhiO_nonval (TWait w k) k SGo eq_refl I (Hp Hi)).
    - intros _ i k sg Hp Hi. exact (PhiO_nonval (TReady k sg) k (SThrow XCancelled) eq_refl I (Hp Hi)).
    - intros _ i w k Hp Hi. exact (PhiO_nonval (TWait w k) k (SThrow XCancelled) eq_refl I (Hp Hi)).
    - intros _ i k _. split; [reflexivity|]. split; [intros v []|]. split; [intros r v E|intros v E]; discriminate E.
    - intros _. split; [reflexivity|]. split; [intros v [E|[]]; discriminate E|]. split; [intros r v E|intros v E]; discriminate E.
    - (* no task is recorded as ready with an empty stack *)
      intros st0 t x sg H0 Hf Ht _ _. exfalso. destruct (find_task_in _ _ _ Hf) as [Hin _].
      destruct (tasks_ok_in _ _ _ (b_stacks _ _ _ (creach_base P Hsw Hhd Hbody _ _ H0)) Hin) as [_ Hx]. rewrite Ht in Hx. destruct Hx as [[Hne _] _]. exact (Hne eq_refl).
    - intros st0 t fr rest sg H0 _ Hp _. split; [intros i f Hi _ E; unfold main_tid in E; lia|]. split; [|exact I].
      intros ->. exact (PhiO_step st0 fr rest sg H0 (Hp eq_refl)).
  Qed.
End Outcome.

Section OutcomeTheorems.
  Variable P : prog.
  Notation G := (b_graph (build (p_decls P) (p_inp P) (p_out P))).
  Notation out := (b_output (build (p_decls P) (p_inp P) (p_out P))).
  Hypothesis HP : plain_prog P.
  Notation order := (p_order P (maind P)).
  Hypothesis Hnd : NoDup order.
  Hypothesis Htopo : forall n p a b, order = a ++ n :: b -> In p (preds G n) -> In p a.

  Lemma returned_value_was_stored st v :
    reachable P st -> main_state st = Some (TDone (SVal v)) -> W P v.
  Proof.
    destruct HP as (Hg & Hb & _). destruct (graph_plain_sound _ Hg) as [Hsw Hhd].
    intros Hr Hm. pose proof (reachable_creach P st Hr) as Hc. pose proof (creach_outcome P Hsw Hhd Hb st None Hc) as HO.
    destruct (reachable_find_main P st Hr) as [x [Hf [_ Hid]]]. destruct (find_task_in _ _ _ Hf) as [Hin _].
    unfold main_state in Hm. rewrite Hf in Hm. cbn in Hm. inversion Hm as [Es].
    destruct (tasks_ok_in _ _ _ HO Hin Hid) as (_ & _ & _ & D). apply D. exact Es.
  Qed.

  Theorem plain_returned_value_is_prescribed st v :
    reachable P st -> main_state st = Some (TDone (SVal v)) ->
    exists st0 c0, creach P st0 c0 /\ pending st0 /\ okv P st0 out v /\
                   forall p, In p (preds G out) -> exists_result p (st_store st0) = true.
  Proof.
    intros Hr Hm. destruct (returned_value_was_stored st v Hr Hm) as [st0 [c0 (Hc & Ho & Hd & Hres & Hv)]].
    exists st0, c0. split; [exact Hc|]. split; [split; assumption|].
    destruct (plain_results_are_prescribed_c P HP Hnd st0 c0 out Hc (conj Ho Hd) Hres) as (Hk & _ & Hp). rewrite Hv in Hk. auto.
  Qed.

  Theorem plain_returned_value_is_schedule_independent st1 st2 v1 v2 :
    reachable P st1 -> main_state st1 = Some (TDone (SVal v1)) ->
    reachable P st2 -> main_state st2 = Some (TDone (SVal v2)) -> v1 = v2.
  Proof.
    intros Hr1 Hm1 Hr2 Hm2.
    destruct (returned_value_was_stored st1 v1 Hr1 Hm1) as [s1 [c1 (Hc1 & Ho1 & Hd1 & Hres1 & Hv1)]].
    destruct (returned_value_was_stored st2 v2 Hr2 Hm2) as [s2 [c2 (Hc2 & Ho2 & Hd2 & Hres2 & Hv2)]].
    rewrite <- Hv1, <- Hv2.
    exact (plain_results_are_schedule_independent_c P HP Hnd Htopo s1 c1 s2 c2 Hc1 (conj Ho1 Hd1) Hc2 (conj Ho2 Hd2) out Hres1 Hres2).
  Qed.
End OutcomeTheorems.
