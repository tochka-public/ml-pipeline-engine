(* Configuration-level reachability, for every program: the states *inside* one event-loop iteration, frame step by frame
   step. A configuration is a state together with the task that is running (its id, the rest of its stack and the signal it
   is resumed with) or None between two iterations. Every state reachable by a schedule is a None-configuration here, so an
   invariant proved by induction over `creach` (where earlier invariants are available at every intermediate point) holds of
   every reachable state. `creach` is larger than what schedules reach: any queued id may be skipped (`cr_skip`) and the
   interpreter may give up at any point (`cr_abort`); invariants do not mind. *)
From MLPE Require Import Engine.Run Proofs.ExecLemmas Proofs.Evolve.

Definition running := option (tid * list frame * signal).

Section Micro.
  Variable P : prog.

  Definition after_step (t : tid) (rest : list frame) (r : mstate * directive) : mstate * running :=
    match r with
    | (st1, DSuspend w k') => (suspend t w (k' ++ rest) st1, None)
    | (st1, DYield k') => (push_ready t (set_tstate t (TReady (k' ++ rest) SGo) st1), None)
    | (st1, DCont k' sg') => (st1, Some (t, k' ++ rest, sg'))
    | (st1, DRet sg') => (st1, Some (t, rest, sg'))
    end.

  Inductive creach : mstate -> running -> Prop :=
  | cr_init : creach (init_state) None
  | cr_start st t rest x k sg :
      creach st None -> st_ready st = t :: rest -> find_task t (st_tasks st) = Some x -> t_state x = TReady k sg ->
      creach (dequeue st) (Some (t, k, sg))
  | cr_skip st t rest :
      creach st None -> st_ready st = t :: rest -> creach (dequeue st) None
  | cr_step st t fr rest sg :
      creach st (Some (t, fr :: rest, sg)) ->
      creach (fst (after_step t rest (step_frame P t fr sg st))) (snd (after_step t rest (step_frame P t fr sg st)))
  | cr_done st t sg : creach st (Some (t, [], sg)) -> creach (set_tstate t (TDone sg) st) None
  | cr_abort st c : creach st (Some c) -> creach (abort P st) None
  | cr_gate st g : creach st None -> creach (complete_gate g st) None
  | cr_cancel st : creach st None -> creach (cancel_task main_tid st) None.

  Lemma creach_exec fuel : forall t k sg st, creach st (Some (t, k, sg)) -> creach (exec P fuel t k sg st) None.
  Proof.
    induction fuel as [|f IH]; intros t k sg st H.
    - destruct k as [|fr rest]; cbn [exec]; [apply cr_done; exact H|]. eapply cr_abort. exact H.
    - destruct k as [|fr rest]; cbn [exec]; [apply cr_done; exact H|].
      pose proof (cr_step st t fr rest sg H) as Hs.
      destruct (step_frame P t fr sg st) as [st1 [w k'|k'|k' sg'|sg']]; cbn [after_step fst snd] in Hs; try exact Hs; apply IH; exact Hs.
  Qed.

  Lemma creach_loop_step st : creach st None -> creach (loop_step P st) None.
  Proof.
    intros H. rewrite loop_step_unfold. destruct (st_ready st) as [|t rest] eqn:E; [exact H|].
    destruct (find_task t (st_tasks st)) as [x|] eqn:F; [|eapply cr_skip; eassumption].
    destruct (t_state x) as [k sg|w k|r] eqn:T; try (eapply cr_skip; eassumption).
    apply creach_exec. eapply cr_start; eassumption.
  Qed.

  Theorem reachable_creach st : reachable P st -> creach st None.
  Proof.
    revert st. apply (reachable_inv P (fun st => creach st None)).
    - apply cr_init.
    - intros st _. apply creach_loop_step.
    - intros st g _. apply cr_gate.
    - intros st _. apply cr_cancel.
  Qed.

  Lemma ev_after_step t rest fr sg st : evolves st (fst (after_step t rest (step_frame P t fr sg st))).
  Proof.
    pose proof (ev_step_frame P t fr sg st) as H.
    destruct (step_frame P t fr sg st) as [st1 [w k'|k'|k' sg'|sg']]; cbn [after_step fst] in *; try exact H.
    - eapply evolves_trans; [exact H|]. unfold suspend. eapply evolves_trans; [apply ev_set_tstate|apply ev_set_waiters].
    - eapply evolves_trans; [exact H|]. eapply evolves_trans; [apply ev_set_tstate|apply ev_push_ready].
  Qed.

  Theorem creach_evolves : forall st c, creach st c -> evolves (init_state) st.
  Proof.
    intros st c H. induction H as [|st t rest x k sg H IH Hq Hf Ht|st t rest H IH Hq|st t fr rest sg H IH|st t sg H IH|st c H IH|st g H IH|st H IH].
    - apply evolves_refl.
    - eapply evolves_trans; [exact IH|apply ev_dequeue].
    - eapply evolves_trans; [exact IH|apply ev_dequeue].
    - eapply evolves_trans; [exact IH|apply ev_after_step].
    - eapply evolves_trans; [exact IH|apply ev_set_tstate].
    - eapply evolves_trans; [exact IH|apply ev_abort].
    - eapply evolves_trans; [exact IH|exact (ev_action P (AGate g) st)].
    - eapply evolves_trans; [exact IH|exact (ev_action P ACancel st)].
  Qed.
End Micro.
