(* ALL programs, every schedule: the keyword arguments of every body / get_default invocation are built from the declared
   dependencies of the node: one value per declared parameter, each of them a value that was stored as the result of the declared
   source -- for a switch parameter: of the case recorded for the switch, which is the case labelled with the value the decision node
   stored (C03, C09); the additional_data entry is the payload of a Recurrent marker stored by the destination of a recurrent
   subgraph that starts at the node (C11). *)
From MLPE Require Import Engine.Run Proofs.ExecLemmas Proofs.Evolve Proofs.Micro Proofs.PlainLive Proofs.PlainCore Proofs.StackAll Proofs.StoreAll
     Proofs.SwitchAll Proofs.RecAll.

Lemma fold_left_ext_eq {A B} (f g : A -> B -> A) (l : list B) (a : A) : (forall x y, f x y = g x y) -> fold_left f l a = fold_left g l a.
Proof. intros H. revert a. induction l as [|b r IH]; intros a; cbn [fold_left]; [reflexivity|]. rewrite H. apply IH. Qed.

Section ArgsAll.
  Variable P : prog.
  Notation G := (b_graph (build (p_decls P) (p_inp P) (p_out P))).
  Notation inp := (b_input (build (p_decls P) (p_inp P) (p_out P))).

  (* _get_node_kwargs over an arbitrary "value of the source" function: one entry per incoming edge that names a parameter, plus
     additional_data for the start node of a recurrent subgraph; the input node gets the caller's input_kwargs *)
  Definition gen_kwargs (n : key) (val : key -> option value) (ad : option value) : option kwargs :=
    let base :=
        if key_eqb n inp then Some (p_input P)
        else fold_left (fun acc pe =>
                          match acc with
                          | None => None
                          | Some kw =>
                            match ea_kwarg (snd pe) with
                            | None => Some kw
                            | Some nm => match val (fst pe) with Some v => Some (kw_insert nm v kw) | None => None end
                            end
                          end) (preds_e G n) (Some []) in
    match base with
    | None => None
    | Some kw => match ad with
                 | Some VNone => Some kw
                 | Some v => Some (kw_insert additional_data_name v kw)
                 | None => Some kw
                 end
    end.

  Definition val_of (st : mstate) (p : key) : option value :=
    if is_switch G p
    then match get_switch p (st_store st) with Some (_, c) => Some (get_result c true (st_store st)) | None => None end
    else Some (get_result p true (st_store st)).

  Lemma node_kwargs_gen st n : node_kwargs P st n = gen_kwargs n (val_of st) (alookup key_eqb n (st_adddata st)).
  Proof.
    unfold node_kwargs, gen_kwargs. destruct (key_eqb n inp); [reflexivity|].
    erewrite fold_left_ext_eq; [reflexivity|]. intros acc pe. destruct acc as [kw|]; [|reflexivity].
    destruct (ea_kwarg (snd pe)) as [nm|]; [|reflexivity]. unfold val_of.
    destruct (is_switch G (fst pe)); [|reflexivity]. destruct (get_switch (fst pe) (st_store st)) as [[l c]|]; reflexivity.
  Qed.

  (* where a value handed to a parameter comes from; VNone also stands for "the source has no result" (get_result's default) *)
  Definition was_stored (tr : list obs) (k : key) (v : value) : Prop := In (OSetResult k v) tr \/ v = VNone.
  Definition prov (tr : list obs) (p : key) (v : value) : Prop :=
    if is_switch G p
    then exists lbl c, sel_ok P tr p lbl c /\ was_stored tr c v
    else was_stored tr p v.
  Definition ad_ok (tr : list obs) (n : key) (ad : option value) : Prop :=
    match ad with
    | None => True
    | Some v => exists dst res, na_start (nattr_of G dst) = Some n /\ is_rec res = true /\ In (OSetResult dst res) tr /\ v = rec_data res
    end.
  Definition args_ok (tr : list obs) (i : nat) (kw : kwargs) : Prop :=
    exists n val ad, real_index n = i /\ gen_kwargs n val ad = Some kw /\ (forall p v, val p = Some v -> prov tr p v) /\ ad_ok tr n ad.

  Lemma prov_mono new tr p v : prov tr p v -> prov (new ++ tr) p v.
  Proof.
    unfold prov. destruct (is_switch G p); [|apply was_stored_mono].
    intros [l [c [A B]]]. exists l, c. split; [apply sel_ok_mono; exact A|apply was_stored_mono; exact B].
  Qed.
  Lemma ad_ok_mono new tr n ad : ad_ok tr n ad -> ad_ok (new ++ tr) n ad.
  Proof.
    destruct ad as [v|]; [|auto]. intros [dst [res (A & B & C & D)]]. exists dst, res. split; [exact A|]. split; [exact B|]. split; [|exact D].
    apply in_or_app. right. exact C.
  Qed.
  Lemma args_ok_mono new tr i kw : args_ok tr i kw -> args_ok (new ++ tr) i kw.
  Proof.
    intros [n [val [ad (A & B & C & D)]]]. exists n, val, ad. split; [exact A|split; [exact B|]]. split; [|apply ad_ok_mono; exact D].
    intros p v Hv. apply prov_mono. exact (C p v Hv).
  Qed.

  Lemma val_of_prov st p v : Istore st -> SwI P st -> val_of st p = Some v -> prov (st_trace st) p v.
  Proof.
    intros HI HS. unfold val_of, prov. destruct (is_switch G p).
    - destruct (get_switch p (st_store st)) as [[l c]|] eqn:Eg; [|discriminate]. intros E. inversion E; subst.
      exists l, c. split; [exact (HS p l c Eg)|apply result_was_stored; exact HI].
    - intros E. inversion E; subst. apply result_was_stored. exact HI.
  Qed.

  Definition kwf (tr : list obs) (f : frame) : Prop :=
    match f with
    | FRetry i _ kw _ | FRetryAfterBody i kw _ | FRetryAfterEmit i kw _ | FRetryAfterSleep i kw _ => args_ok tr i kw
    | _ => True
    end.
  Definition stack_kw (tr : list obs) (k : list frame) : Prop := forall f, In f k -> kwf tr f.
  Definition kw_TP (tr : list obs) (x : task frame) : Prop := stack_kw tr (estack (t_state x)).

  Lemma kwf_mono new tr f : kwf tr f -> kwf (new ++ tr) f.
  Proof. destruct f; cbn [kwf]; try (intros; exact I); apply args_ok_mono. Qed.
  Lemma step_kwf t fr sg st f :
    Istore st -> SwI P st -> AdI P st -> kwf (st_trace st) fr -> In f (dir_frames (snd (step_frame P t fr sg st))) ->
    kwf (st_trace (fst (step_frame P t fr sg st))) f.
  Proof.
    intros HI HS HA Hfr.
    destruct (ev_trace _ _ (ev_step_frame P t fr sg st)) as [new Etr]. rewrite Etr. clear Etr. intros Hin0. apply kwf_mono. revert Hin0. revert Hfr.
    intros Hfr Hin. destruct (step_pushed P t fr sg st f Hin) as [k' [Hp Hf]].
    destruct Hp; cbn [In] in Hf; repeat (destruct Hf as [<-|Hf]); try contradiction; cbn [kwf] in *; try exact I; try exact Hfr.
    (* _execute_node computing the arguments *)
    exists n, (val_of st), (alookup key_eqb n (st_adddata st)). split; [reflexivity|]. split.
    - rewrite <- node_kwargs_gen. assumption.
    - split; [intros p9 v9 Hv9; apply val_of_prov; assumption|].
      unfold ad_ok. destruct (alookup key_eqb n (st_adddata st)) as [v9|] eqn:Ea; [|exact I].
      destruct (HA n v9 Ea) as [dst [res (A1 & (A2 & A3) & A4)]]. exists dst, res. auto.
  Qed.

  Definition call_obs (o : obs) : option (nat * kwargs) :=
    match o with OStart i _ kw | ODefault i kw => Some (i, kw) | _ => None end.
  Definition calls_ok (tr : list obs) : Prop :=
    forall a o b i kw, tr = a ++ o :: b -> call_obs o = Some (i, kw) -> args_ok b i kw.

  Theorem creach_args : forall st c, creach P st c ->
    tasks_ok (kw_TP (st_trace st)) st /\
    (match c with Some (_, k, _) => stack_kw (st_trace st) k | None => True end) /\
    calls_ok (st_trace st).
  Proof.
    set (Q := fun o b => forall i kw, call_obs o = Some (i, kw) -> args_ok b i kw).
    intros st c Hc. destruct (creach_frames_inv P kwf (after_each Q)) with (st := st) (c := c) as (A & B & C); try assumption.
    - intros new tr f. apply kwf_mono.
    - exact I.
    - apply after_each_one. intros i kw Hk. discriminate Hk.
    - intros st0 t fr rest sg Hc0 B C. specialize (B fr (or_introl eq_refl)).
      pose proof (creach_store P _ _ Hc0) as HI. pose proof (creach_switch P _ _ Hc0) as HS. destruct (creach_rec P _ _ Hc0) as (_ & _ & HA).
      destruct (step_obs P t fr sg st0) as [new [Etr Hnew]]. split.
      + intros f [Hs|Hin]; [apply spawns_spawn_frame in Hs; destruct f; try discriminate Hs; exact I|exact (step_kwf t fr sg st0 f HI HS HA B Hin)].
      + rewrite Etr. apply after_each_app; [|exact C|].
        * intros o b b' Hb i kw Hk. apply args_ok_mono. exact (Hb i kw Hk).
        * (* a call is logged by the retry loop, with the arguments its frame carries *)
          intros o Ho i kw Hk. specialize (Hnew o Ho). destruct o; try discriminate Hk; inversion Hk; subst; cbn [obs_origin] in Hnew.
          -- destruct Hnew as [att [-> _]]. exact B.
          -- destruct Hnew as [[att ->]|[att [-> _]]]; exact B.
    - split; [exact A|]. split; [exact B|]. intros a o b i kw E Hk. exact (C a o b E i kw Hk).
  Qed.
End ArgsAll.

(* [gen_kwargs P n val ad]: the keyword arguments _get_node_kwargs builds for node n when [val p] is the value of source p and [ad]
   the additional_data entry of n; [prov P b p v]: in the history b, v was stored as the result of p -- for a switch p: of the case c
   recorded for p, where (p, lbl, c) follows the case table and lbl was stored by the decision node -- or v is None, which is also
   what a source without a result yields; [ad_ok P b n ad]: the additional_data entry, if any, is the payload of a Recurrent marker
   that the destination of a recurrent subgraph starting at n stored in b *)
Theorem arguments_come_from_the_declared_inputs_all_programs P :
  forall st, reachable P st ->
    forall a b i k kw, st_trace st = a ++ OStart i k kw :: b ->
      exists n val ad, real_index n = i /\ gen_kwargs P n val ad = Some kw /\ (forall p v, val p = Some v -> prov P b p v) /\ ad_ok P b n ad.
Proof.
  intros st Hr a b i k kw E. destruct (creach_args P st None (reachable_creach P st Hr)) as (_ & _ & Hc).
  exact (Hc a (OStart i k kw) b i kw E eq_refl).
Qed.

Theorem default_arguments_come_from_the_declared_inputs_all_programs P :
  forall st, reachable P st ->
    forall a b i kw, st_trace st = a ++ ODefault i kw :: b ->
      exists n val ad, real_index n = i /\ gen_kwargs P n val ad = Some kw /\ (forall p v, val p = Some v -> prov P b p v) /\ ad_ok P b n ad.
Proof.
  intros st Hr a b i kw E. destruct (creach_args P st None (reachable_creach P st Hr)) as (_ & _ & Hc).
  exact (Hc a (ODefault i kw) b i kw E eq_refl).
Qed.
