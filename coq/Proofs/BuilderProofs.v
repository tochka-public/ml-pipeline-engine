(* C15: every declared parameter of every node the output needs gets its own dependency delivering to that
   parameter name, and nothing the builder does later drops, re-targets or merges it. *)
From MLPE Require Import Pure.Builder Proofs.AssocLemmas Proofs.TraversalProofs.

Lemma edge_eqb_spec a b : edge_eqb a b = true <-> a = b.
Proof.
  destruct a as [u v], b as [u' v']. unfold edge_eqb. simpl.
  rewrite andb_true_iff, !key_eqb_spec. split; [intros [-> ->]; reflexivity|intros H; inversion H; auto].
Qed.

Definition edge_attr (g : graph) (u v : key) : option eattr := alookup edge_eqb (u, v) (g_edges g).

Lemma add_node_edges k f g : g_edges (add_node k f g) = g_edges g.
Proof. reflexivity. Qed.

Lemma add_edge_same u v f g :
  edge_attr (add_edge u v f g) u v = Some (f (match edge_attr g u v with Some a => a | None => eattr0 end)).
Proof. unfold edge_attr, add_edge. simpl. apply (alookup_aset_same edge_eqb edge_eqb_spec). Qed.

Lemma add_edge_other u v f g u' v' : (u', v') <> (u, v) -> edge_attr (add_edge u v f g) u' v' = edge_attr g u' v'.
Proof. intros H. unfold edge_attr, add_edge. simpl. apply (alookup_aset_other edge_eqb edge_eqb_spec). exact H. Qed.

(* the keys that only the translation of node [cur] writes edges into *)
Definition own (cur : nat) (k : key) : Prop :=
  match k with KN i => i = cur | KSw i _ => i = cur | KOo i _ => i = cur end.

(* frame: translating node cur only touches edges into keys owned by cur *)
Lemma fold_keeps_edge {A} (fg : A -> graph -> graph) u v :
  (forall x g, edge_attr (fg x g) u v = edge_attr g u v) ->
  forall l g, edge_attr (fold_left (fun g x => fg x g) l g) u v = edge_attr g u v.
Proof. intros H. induction l as [|x r IH]; intros g; simpl; [reflexivity|]. rewrite IH. apply H. Qed.

Lemma apply_mark_frame inp cur idx p mk b u v :
  ~ own cur v -> edge_attr (bs_g (apply_mark inp cur idx p mk b)) u v = edge_attr (bs_g b) u v.
Proof.
  intros Hv. assert (T : forall u' v', own cur v' -> (u, v) <> (u', v')) by (intros u' v' Ho E; inversion E; subst; exact (Hv Ho)).
  destruct mk as [m | d cases | cs | s d mx]; simpl.
  - apply add_edge_other, T. reflexivity.
  - erewrite fold_triple. simpl. rewrite add_edge_other by (apply T; reflexivity).
    rewrite fold_keeps_edge by (intros; rewrite add_edge_other by (apply T; reflexivity); reflexivity).
    rewrite add_edge_other by (apply T; reflexivity). reflexivity.
  - erewrite fold_triple. simpl. rewrite add_edge_other by (apply T; reflexivity).
    rewrite fold_keeps_edge by (intros; rewrite add_edge_other by (apply T; reflexivity); reflexivity).
    rewrite add_edge_other by (apply T; reflexivity). reflexivity.
  - rewrite add_edge_other by (apply T; reflexivity). reflexivity.
Qed.

Lemma apply_marks_frame inp cur ps u v : forall idx b,
  ~ own cur v -> edge_attr (bs_g (apply_marks inp cur idx ps b)) u v = edge_attr (bs_g b) u v.
Proof.
  induction ps as [|[p mk] r IH]; intros idx b Hv; simpl; [reflexivity|].
  rewrite IH by exact Hv. apply apply_mark_frame. exact Hv.
Qed.

Lemma visit_node_frame ds inp cur b u v :
  ~ own cur v -> edge_attr (bs_g (visit_node ds inp cur b)) u v = edge_attr (bs_g b) u v.
Proof.
  intros Hv. unfold visit_node. rewrite apply_marks_frame by exact Hv.
  destruct (match nth_opt ds cur with Some nd => ns_params nd | None => [] end); simpl; [|reflexivity].
  destruct (Nat.eqb inp cur); simpl; [reflexivity|].
  apply add_edge_other. intros E. inversion E; subst. apply Hv. reflexivity.
Qed.

(* the real source node of a parameter, when the dependency comes straight from a real node *)
Definition direct_source (mk : mark) : option nat :=
  match mk with MIn m => Some m | MRec _ d _ => Some d | _ => None end.

Lemma apply_mark_other_source inp cur idx p mk b src :
  direct_source mk <> Some src ->
  edge_attr (bs_g (apply_mark inp cur idx p mk b)) (KN src) (KN cur) = edge_attr (bs_g b) (KN src) (KN cur).
Proof.
  intros Hs. destruct mk as [m | d cases | cs | s d mx]; simpl.
  - apply add_edge_other. intros E. inversion E; subst. apply Hs. reflexivity.
  - erewrite fold_triple. simpl. rewrite add_edge_other by discriminate.
    rewrite fold_keeps_edge by (intros; rewrite add_edge_other by discriminate; reflexivity). rewrite add_edge_other by discriminate. reflexivity.
  - erewrite fold_triple. simpl. rewrite add_edge_other by discriminate.
    rewrite fold_keeps_edge by (intros; rewrite add_edge_other by discriminate; reflexivity). rewrite add_edge_other by discriminate. reflexivity.
  - rewrite add_edge_other by (intros E; inversion E; subst; apply Hs; reflexivity). reflexivity.
Qed.

Lemma apply_mark_direct inp cur idx p mk b src :
  direct_source mk = Some src ->
  exists a, edge_attr (bs_g (apply_mark inp cur idx p mk b)) (KN src) (KN cur) = Some a /\ ea_kwarg a = Some p.
Proof.
  intros Hs. destruct mk as [m | d cases | cs | s d mx]; simpl in Hs; inversion Hs; subst; simpl.
  - rewrite add_edge_same. eexists. split; [reflexivity|reflexivity].
  - rewrite add_edge_same. eexists. split; [reflexivity|reflexivity].
Qed.

(* no two parameters of the node take their value straight from the same node *)
Definition distinct_sources (ps : list (pname * mark)) : Prop :=
  NoDup (flat_map (fun pm => match direct_source (snd pm) with Some s => [s] | None => [] end) ps).

Lemma apply_marks_keeps inp cur ps src : forall idx b a,
  ~ In src (flat_map (fun pm => match direct_source (snd pm) with Some s => [s] | None => [] end) ps) ->
  edge_attr (bs_g b) (KN src) (KN cur) = Some a ->
  edge_attr (bs_g (apply_marks inp cur idx ps b)) (KN src) (KN cur) = Some a.
Proof.
  induction ps as [|[p mk] r IH]; intros idx b a Hn He; simpl; [exact He|].
  simpl in Hn. apply IH.
  - intros Hin. apply Hn. apply in_or_app. right. exact Hin.
  - rewrite (apply_mark_other_source inp cur idx p mk b src); [exact He|].
    intros Hd. apply Hn. apply in_or_app. left. rewrite Hd. left. reflexivity.
Qed.

Lemma apply_marks_delivers inp cur ps : forall idx b p mk src,
  distinct_sources ps -> In (p, mk) ps -> direct_source mk = Some src ->
  exists a, edge_attr (bs_g (apply_marks inp cur idx ps b)) (KN src) (KN cur) = Some a /\ ea_kwarg a = Some p.
Proof.
  induction ps as [|[p0 mk0] r IH]; intros idx b p mk src Hd Hin Hs; [destruct Hin|].
  simpl. unfold distinct_sources in Hd. simpl in Hd. destruct Hin as [E|Hin].
  - inversion E; subst p0 mk0. rewrite Hs in Hd. simpl in Hd. inversion Hd as [|? ? Hnin Hnd]; subst.
    destruct (apply_mark_direct inp cur idx p mk b src Hs) as [a [Ha Hk]].
    exists a. split; [|exact Hk]. apply apply_marks_keeps; assumption.
  - apply (IH (S idx) _ p mk src); [|exact Hin|exact Hs].
    unfold distinct_sources. destruct (direct_source mk0); simpl in Hd; [inversion Hd; assumption|exact Hd].
Qed.

Lemma visit_node_delivers ds inp cur b p mk src :
  distinct_sources (params_of ds cur) -> In (p, mk) (params_of ds cur) -> direct_source mk = Some src ->
  exists a, edge_attr (bs_g (visit_node ds inp cur b)) (KN src) (KN cur) = Some a /\ ea_kwarg a = Some p.
Proof.
  intros Hd Hin Hs. unfold visit_node. unfold params_of in *.
  destruct (nth_opt ds cur) as [nd|]; [|destruct Hin].
  destruct (ns_params nd) as [|pm r] eqn:Ep; [destruct Hin|].
  apply (apply_marks_delivers inp cur (pm :: r) 0 _ p mk src); assumption.
Qed.

(* through the loop: once node i has been translated, its deliveries stay *)
Lemma loop_keeps ds inp i src a : forall fuel b,
  ~ In i (fst (bs_sv b)) ->
  (forall x, In x (fst (bs_sv b)) -> In x (snd (bs_sv b))) -> In i (snd (bs_sv b)) ->
  edge_attr (bs_g b) (KN src) (KN i) = Some a ->
  edge_attr (bs_g (build_loop fuel ds inp b)) (KN src) (KN i) = Some a.
Proof.
  Local Transparent build_loop.
  induction fuel as [|f IH]; intros b Hns Hsv Hiv He; simpl; [exact He|].
  destruct (bs_sv b) as [st vis] eqn:Esv. simpl in *. destruct st as [|cur rest]; [exact He|].
  set (b1 := {| bs_g := bs_g b; bs_map := bs_map b; bs_recs := bs_recs b; bs_synth := bs_synth b;
                bs_sv := (rest, vis); bs_pop := bs_pop b ++ [cur] |}).
  destruct (visit_node_sv ds inp cur b1) as [V1 _]. simpl in V1.
  assert (Hne : cur <> i) by (intros ->; apply Hns; left; reflexivity).
  apply IH; rewrite ?V1.
  - (* i is already visited, so it is never pushed again *)
    apply visits_not_pushed; [exact Hiv|]. intros Hr. apply Hns. right. exact Hr.
  - apply visits_stack_seen. intros y Hy. apply Hsv. right. exact Hy.
  - apply visits_visited. exact Hiv.
  - rewrite visit_node_frame; [exact He|]. simpl. exact (fun E => Hne (eq_sym E)).
Qed.

Lemma loop_delivers ds inp i p mk src :
  distinct_sources (params_of ds i) -> In (p, mk) (params_of ds i) -> direct_source mk = Some src ->
  forall fuel b,
    NoDup (fst (bs_sv b)) -> (forall x, In x (fst (bs_sv b)) -> In x (snd (bs_sv b))) ->
    ~ In i (bs_pop b) -> In i (bs_pop (build_loop fuel ds inp b)) ->
    exists a, edge_attr (bs_g (build_loop fuel ds inp b)) (KN src) (KN i) = Some a /\ ea_kwarg a = Some p.
Proof.
  intros Hd Hin Hs. induction fuel as [|f IH]; intros b Hnd Hsv Hnp Hp; simpl in *; [contradiction|].
  destruct (bs_sv b) as [st vis] eqn:Esv. simpl in *. destruct st as [|cur rest]; [contradiction|].
  set (b1 := {| bs_g := bs_g b; bs_map := bs_map b; bs_recs := bs_recs b; bs_synth := bs_synth b;
                bs_sv := (rest, vis); bs_pop := bs_pop b ++ [cur] |}) in *.
  destruct (visit_node_sv ds inp cur b1) as [V1 V2]. simpl in V1, V2.
  inversion Hnd as [|? ? Hcr Hndr]; subst.
  assert (Hsv1 : forall y, In y rest -> In y vis) by (intros y Hy; apply Hsv; right; exact Hy).
  destruct (Nat.eq_dec cur i) as [->|Hne].
  - (* node i is translated now; afterwards nothing touches its incoming edges *)
    destruct (visit_node_delivers ds inp i b1 p mk src Hd Hin Hs) as [a [Ha Hk]].
    exists a. split; [|exact Hk]. apply loop_keeps; rewrite ?V1.
    + apply visits_not_pushed; [apply Hsv; left; reflexivity|exact Hcr].
    + apply visits_stack_seen. exact Hsv1.
    + apply visits_visited. apply Hsv. left. reflexivity.
    + exact Ha.
  - apply IH.
    + rewrite V1. apply visits_nodup; assumption.
    + rewrite V1. apply visits_stack_seen. exact Hsv1.
    + rewrite V2. intros Hx. apply in_app_iff in Hx. destruct Hx as [Hx|[Hx|[]]]; [contradiction|contradiction].
    + exact Hp.
Qed.
