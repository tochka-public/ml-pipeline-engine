(* Plain programs, every schedule, while manager.run is pending: nobody waits in vain.
   - the launcher parked before node n: some dependency of n has not finished (its event is unset or it has no result);
   - the chart task parked inside manager.run: no node has failed (every set event has a result) and the output node's event is unset;
   - manager.run has its launcher. *)
From MLPE Require Import Engine.Run Proofs.ExecLemmas Proofs.Evolve Proofs.PlainWorld Proofs.PlainStep Proofs.PlainLaunch Proofs.PlainLive Proofs.Micro Proofs.PlainBase Proofs.StackAll Proofs.PlainCore Proofs.PlainInv Proofs.PlainRoles Proofs.PlainExec.

Definition has_run (k : list frame) : bool := existsb (fun f => match f with FRunWait => true | _ => false end) k.
Definition fin (st : mstate) (p : key) : bool := event_is_set p st && exists_result p (st_store st).

Section WaitSteps.
  Variable P : prog.

  (* a step that sets an event is exactly the `finally` of _run_node *)
  Lemma plain_step_finally t fr sg st n :
    plain_frame P fr = true -> clean_sig sg -> step_event fr sg = Some n ->
    fst (step_frame P t fr sg st) = finally_b P (maind P) n st.
  Proof.
    intros Hf Hs.
    destruct fr; try discriminate Hf; cbn [plain_frame] in Hf; plain_prep;
      destruct sg; cbn [clean_sig] in Hs; cbn [step_event]; intros H; try discriminate H; inversion H; subst; reflexivity.
  Qed.

  Lemma plain_step_run t fr sg st :
    plain_frame P fr = true -> clean_sig sg -> PS st ->
    has_run (dir_frames (snd (step_frame P t fr sg st))) = true -> (fr = FChartAfterStart /\ In TNRun (creates P fr sg st)) \/ fr = FRunWait.
  Proof.
    intros Hf Hs Hst. rewrite (step_dir P t fr sg st Hf Hs Hst).
    unfold creates. plain_cases fr sg Hf Hs; cbn [snd dir_frames has_run existsb emit_frames orb]; intros H; try discriminate H; try (right; reflexivity).
    left. split; [reflexivity|left; reflexivity].
  Qed.

  Lemma plain_step_wait_run t fr rest sg st k :
    plain_frame P fr = true -> clean_sig sg -> PS st ->
    nstate rest (snd (step_frame P t fr sg st)) = TWait (WCond CRun) k ->
    fr = FRunWait /\ sg = SGo /\ run_pred P st = false /\ fst (step_frame P t fr sg st) = st.
  Proof.
    intros Hf Hs Hst. rewrite (step_plain P t fr sg st Hf Hs Hst). cbn [plain_step fst snd].
    plain_cases fr sg Hf Hs; cbn [snd fst nstate app emit_frames]; intros Hts; try discriminate Hts;
      try (destruct rest; discriminate Hts).
    auto.
  Qed.
End WaitSteps.

Lemma in_find (l : list (task frame)) y : NoDup (map (@t_id frame) l) -> In y l -> find_task (t_id y) l = Some y.
Proof.
  induction l as [|z r IH]; [contradiction|]. cbn [map find_task]. intros Hnd [->|Hy]; [rewrite Nat.eqb_refl; reflexivity|].
  inversion Hnd as [|a b Hni Hr]; subst. destruct (Nat.eqb (t_id z) (t_id y)) eqn:E; [|apply IH; assumption].
  apply Nat.eqb_eq in E. exfalso. apply Hni. rewrite E. apply in_map. exact Hy.
Qed.

Lemma task_errors_in (st : mstate) x e :
  In x (st_tasks st) -> t_helper x = true -> t_state x = TDone (SThrow e) -> e <> XCancelled -> In e (task_errors st).
Proof.
  intros Hx Hh Hs Hne. unfold task_errors. apply in_flat_map. exists x. split; [exact Hx|]. rewrite Hh, Hs.
  destruct e; try (left; reflexivity). contradiction.
Qed.

Section WaitInv.
  Variable P : prog.
  Notation G := (b_graph (build (p_decls P) (p_inp P) (p_out P))).
  Notation out := (b_output (build (p_decls P) (p_inp P) (p_out P))).
  Hypothesis Hsw : forall n, is_switch G n = false.
  Hypothesis Hhd : forall n, is_head G n = false.
  Hypothesis Hbody : forall i kw a v, p_body P i kw a = OVal v -> clean v = true.
  Notation order := (p_order P (maind P)).
  Hypothesis Hnd : NoDup order.
  Hypothesis Hsucc : forall n p, In p (preds G n) -> In n (p_succ_order P p).

  Lemma is_ready_false (s : storage) n :
    plain_store s -> is_ready P s (maind P) n = false -> exists p, In p (preds G n) /\ exists_result p s = false.
  Proof.
    intros Hps. unfold is_ready, ready_preds. rewrite Hsw, Hhd. cbn [d_rec maind orb].
    induction (preds G n) as [|p r IH]; cbn [forallb]; [discriminate|]. intros H. apply andb_false_iff in H. destruct H as [H|H].
    - exists p. split; [left; reflexivity|]. unfold resolve_switch in H. rewrite Hsw in H.
      apply andb_false_iff in H. destruct H as [H|H]; [exact H|].
      apply negb_false_iff in H. pose proof (plain_get_result p false s Hps) as Hc. apply clean_not_rec in Hc. congruence.
    - destruct (IH H) as [q [Hq Hr]]. exists q. split; [right; exact Hq|exact Hr].
  Qed.

  Definition PhiW (st : mstate) (i : idt) (ts : tstate frame) : Prop :=
    (snd (fst i) = TNRun -> forall n d r l, ts = TWait (WCond (CNode n)) [FDagLoop d (n :: r) l] ->
                            exists p, In p (preds G n) /\ fin st p = false) /\
    (fst (fst i) = main_tid -> forall k, ts = TWait (WCond CRun) k ->
                               (forall m, event_is_set m st = true -> exists_result m (st_store st) = true) /\ event_is_set out st = false) /\
    (fst (fst i) = main_tid -> has_run (estack ts) = true -> In TNRun (names st)).
  Definition waitI (st : mstate) (c : running) : Prop := guard st \/ allT (PhiW st) st c.

  Lemma PhiW_ext a b i ts : same_core a b -> PhiW a i ts -> PhiW b i ts.
  Proof. unfold PhiW, fin, event_is_set. intros (-> & -> & _ & -> & _). auto. Qed.

  Lemma PhiW_wake st : wake_closed (PhiW st).
  Proof.
    intros i w k (A & B & C). split; [|split].
    - intros _ n d r l H. discriminate H.
    - intros _ k0 H. discriminate H.
    - exact C.
  Qed.

  Lemma has_run_app a b : has_run (a ++ b) = has_run a || has_run b.
  Proof. unfold has_run. apply existsb_app. Qed.

  Lemma descendants_succ n p : In n (p_succ_order P p) -> In n (descendants P p).
  Proof. intros H. unfold descendants. apply in_or_app. left. exact H. Qed.

  (* a dependency finishes across a step only by the `finally` of its own task: a result is stored while the node's event is unset *)
  Lemma fin_step st t fr sg p :
    plain_frame P fr = true -> clean_sig sg -> PS st ->
    (forall d v, fr = FNodeAfterExec d p -> sg = SVal v -> event_is_set p st = false) ->
    fin (fst (step_frame P t fr sg st)) p = true -> fin st p = true \/ step_event fr sg = Some p.
  Proof.
    intros Kf Hs Hps Hnew Hp. destruct (Hps : plain_store _) as [_ [Hrh _]]. destruct (step_effects P t fr sg st Kf Hs Hps) as (_ & _ & Hst & Hev).
    unfold fin in *. apply andb_true_iff in Hp. destruct Hp as [He Hr]. rewrite Hev in He. rewrite Hst in Hr.
    destruct (step_event fr sg) as [q|] eqn:Ese.
    - destruct (key_eqb p q) eqn:Epq; [right; apply key_eqb_spec in Epq; subst; reflexivity|]. cbn in He. left. rewrite He.
      assert (step_store fr sg st = st_store st) by (destruct fr; try discriminate Ese; destruct sg; try discriminate Ese; reflexivity).
      rewrite H in Hr. rewrite Hr. reflexivity.
    - left. rewrite He. cbn [andb].
      destruct (exists_result p (st_store st)) eqn:Er; [reflexivity|]. exfalso.
      unfold step_store in Hr. destruct fr; try congruence; destruct sg; try congruence.
      + rewrite (result_set _ _ _ _ Hrh), Er, orb_false_r in Hr. apply key_eqb_spec in Hr. subst n. rewrite (Hnew d v eq_refl eq_refl) in He. discriminate He.
      + destruct (exists_processed n (st_store st)); [congruence|]. rewrite result_set_processed in Hr. congruence.
  Qed.

  Lemma no_failure_results st fr rest sg :
    base P st (Some (main_tid, fr :: rest, sg)) -> globE st -> allT (PhiE st) st (Some (main_tid, fr :: rest, sg)) ->
    allT (PhiR P st) st (Some (main_tid, fr :: rest, sg)) -> task_errors st = [] ->
    forall m, event_is_set m st = true -> exists_result m (st_store st) = true.
  Proof.
    intros Hb GE HE HA Hte m Hm. pose proof (GE m Hm) as Hinm. apply node_names_in in Hinm. unfold names in Hinm. apply in_map_iff in Hinm.
    destruct Hinm as [y [Hny Hy]].
    pose proof (allT_In _ _ _ y HE Hy) as Hye. pose proof (allT_In _ _ _ y HA Hy) as (R1 & R2 & _ & _ & R5).
    cbn [ident fst snd] in Hye, R1, R2, R5.
    assert (Hyt : Nat.eqb (t_id y) main_tid = false).
    { apply Nat.eqb_neq. intros E. apply R1 in E. rewrite Hny in E. discriminate E. }
    cbn [estate] in Hye, R5. rewrite Hyt in Hye, R5.
    destruct (Hye m Hny) as (_ & _ & _ & _ & _ & _ & _ & E7 & _). destruct (E7 Hm) as [Hr|[e He]]; [exact Hr|]. exfalso.
    destruct (tasks_ok_in _ _ _ (b_stacks _ _ _ Hb) Hy) as [Hhm _].
    assert (Hh : t_helper y = true).
    { destruct (t_helper y) eqn:Eh; [reflexivity|]. exfalso. apply Nat.eqb_neq in Hyt. apply Hyt. apply Hhm. reflexivity. }
    assert (Hnc : e <> XCancelled) by (intros ->; specialize (R5 Hh); rewrite He in R5; discriminate R5).
    pose proof (task_errors_in st y e Hy Hh He Hnc) as Hin. rewrite Hte in Hin. contradiction.
  Qed.

  Lemma waitA_step st t fr rest sg :
    base P st (Some (t, fr :: rest, sg)) ->
    globR st -> allT (PhiR P st) st (Some (t, fr :: rest, sg)) ->
    globE st -> allT (PhiE st) st (Some (t, fr :: rest, sg)) ->
    allT (PhiW st) st (Some (t, fr :: rest, sg)) ->
    leaves_run fr sg (snd (step_frame P t fr sg st)) = false ->
    allT (PhiW (fst (step_frame P t fr sg st)))
         (fst (after_step t rest (step_frame P t fr sg st))) (snd (after_step t rest (step_frame P t fr sg st))).
  Proof.
    intros Hb HG HA GE HE HW Hlr. destruct HG as (G1 & G2 & G3).
    destruct (base_running P _ _ _ _ _ Hb) as (x0 & Hf0 & Hin0 & Hid0 & Kf & Kr & Hs & Of & Or & Hc).
    pose proof (b_ps _ _ _ Hb) as Hps. destruct (Hps : plain_store _) as [_ [Hrh _]].
    destruct (step_effects P t fr sg st Kf Hs Hps) as (Hn & _ & Hst & Hev).
    destruct (allT_run _ _ _ _ _ _ x0 HA Hin0 Hid0) as (_ & _ & _ & X4 & _). cbn [ident fst snd] in X4.
    pose proof (allT_run _ _ _ _ _ _ x0 HE Hin0 Hid0) as Y1. cbn [ident fst snd] in Y1.
    destruct (allT_run _ _ _ _ _ _ x0 HW Hin0 Hid0) as (_ & _ & Z3). cbn [ident fst snd] in Z3.
    assert (Hnd1 : NoDup (map (@t_id frame) (st_tasks (fst (step_frame P t fr sg st))))).
    { destruct (evolved_shape _ (evolves_trans _ _ _ (b_ev _ _ _ Hb) (ev_step_frame P t fr sg st))) as [xa [ra [_ [_ [_ [_ [H _]]]]]]]. exact H. }
    assert (Hfin : forall p, fin (fst (step_frame P t fr sg st)) p = true -> fin st p = true \/ step_event fr sg = Some p).
    { intros p. apply (fin_step st t fr sg p Kf Hs Hps). intros d v -> _.
      destruct (event_is_set p st) eqn:He; [|reflexivity]. destruct (Y1 p (owner_frame_key _ _ _ Of eq_refl)) as (_ & _ & _ & _ & _ & _ & E48 & _).
      destruct (proj2 E48 He) as [r0 Hr0]. discriminate Hr0. }
    apply (allT_step' P Hsw Hhd (PhiW st)); try assumption.
    - apply PhiW_wake.
    -
      intros nm Hnm. pose proof (base_next _ _ _ Hb) as Hnx. unfold PhiW. cbn [fst snd]. split; [|split].
      + intros _ n d r l H. discriminate H.
      + unfold main_tid. intros; lia.
      + unfold main_tid. intros; lia.
    -
      intros y Hy Hne (A & B & C). unfold PhiW. cbn [ident fst snd] in *. split; [|split].
      + intros Hnm n d r l Hts. destruct (A Hnm n d r l Hts) as [p [Hp Hfp]]. exists p. split; [exact Hp|].
        destruct (fin (fst (step_frame P t fr sg st)) p) eqn:E; [|reflexivity]. exfalso.
        destruct (Hfin p E) as [H|H]; [congruence|].
        (* p's event is set by this step: the launcher has just been notified *)
        rewrite (plain_step_finally P t fr sg st p Kf Hs H) in Hy, Hnd1.
        destruct (finally_b_wakes P (maind P) p st (b_wc _ _ _ Hb)) as [_ Hwk].
        apply (Hwk n (descendants_succ n p (Hsucc n p Hp)) (t_id y) y [FDagLoop d (n :: r) l]); [apply in_find; assumption|exact Hts].
      + intros Hi k Hts. destruct (B Hi k Hts) as [B1 B2].
        destruct (step_event fr sg) as [q|] eqn:Ese.
        * exfalso. rewrite (plain_step_finally P t fr sg st q Kf Hs Ese) in Hy, Hnd1.
          destruct (finally_b_wakes P (maind P) q st (b_wc _ _ _ Hb)) as [Hwk _].
          apply (Hwk (t_id y) y k); [apply in_find; assumption|exact Hts].
        * rewrite Hst. split; [|rewrite Hev; exact B2].
          intros m Hm. rewrite Hev in Hm. apply step_store_res_mono; [exact Hrh|]. apply B1. exact Hm.
      + intros Hi Hr. rewrite Hn. apply in_or_app. left. exact (C Hi Hr).
    -
      intros x Hx Hid. rewrite (run_ident P st t fr sg x0 x (b_ev _ _ _ Hb) Hf0 Hx Hid). unfold PhiW. cbn [ident fst snd]. split; [|split].
      +
        intros Hnm n d r l Hts. destruct (X4 Hnm) as [r0 [Hr0 _]].
        assert (rest = [] /\ sg = SGo) by (destruct rest; [destruct sg; try (destruct fr; discriminate Hr0); auto|destruct fr; discriminate Hr0]).
        destruct H as [-> ->].
        destruct fr; try discriminate Hr0; cbn [plain_frame] in Kf; apply is_main_eq in Kf; subst d0.
        * cbn [step_frame d_rec maind] in Hts.
          match type of Hts with context [match ?l with [] => _ | _ :: _ => _ end] => destruct l end; cbn [snd nstate app] in Hts; discriminate Hts.
        * destruct rest as [|n' r']; [cbn [step_frame snd nstate app] in Hts; discriminate Hts|].
          cbn [step_frame] in Hts |- *. destruct (is_ready P (st_store st) (maind P) n') eqn:Er.
          -- cbn [d_oneof maind andb] in Hts. rewrite (plain_dep_error P _ _ _ (b_ps _ _ _ Hb)), Hsw, Hhd in Hts.
             destruct (spawn _ _ _ st). cbn [snd nstate app] in Hts. discriminate Hts.
          -- cbn [snd fst nstate app] in Hts |- *. inversion Hts; subst. destruct (is_ready_false _ _ (b_ps _ _ _ Hb) Er) as [p [Hp Hrp]].
             exists p. split; [exact Hp|]. unfold fin. rewrite Hrp. apply andb_false_r.
        * cbn [step_frame] in Hts. destruct (exists_result _ _); cbn [snd nstate app] in Hts; discriminate Hts.
      +
        intros Hi k Hts.
        pose proof (plain_step_wait_run P t fr rest sg st k Kf Hs Hps Hts) as Hfr.
        destruct Hfr as (-> & -> & Hrp & Est). rewrite Est.
        unfold run_pred in Hrp. apply orb_false_iff in Hrp. destruct Hrp as [Hte Hro].
        assert (Hte' : task_errors st = []) by (destruct (task_errors st); [reflexivity|discriminate Hte]).
        rewrite Hid0 in Hi. rewrite Hi in Hb, HE, HA. pose proof (no_failure_results st FRunWait rest SGo Hb GE HE HA Hte') as Hall.
        split; [exact Hall|]. destruct (event_is_set out st) eqn:Eo; [|reflexivity]. rewrite (Hall _ Eo) in Hro. discriminate Hro.
      +
        intros Hi Hr. rewrite estack_nstate, has_run_app in Hr. rewrite Hn. apply orb_true_iff in Hr. destruct Hr as [Hr|Hr].
        * destruct (plain_step_run P t fr sg st Kf Hs Hps Hr) as [[_ Hc1]|Hfr]; [apply in_or_app; right; exact Hc1|].
          apply in_or_app. left. apply (Z3 Hi). subst fr. reflexivity.
        * apply in_or_app. left. apply (Z3 Hi). cbn [estack has_run existsb]. fold (has_run rest). rewrite Hr. apply orb_true_r.
  Qed.

  Theorem creach_wait : forall st c, creach P st c -> waitI st c.
  Proof.
    apply (creach_guarded_tasks P Hsw Hhd Hbody PhiW PhiW_ext PhiW_wake).
    - intros st k s (A & B & C). split; [|split]; [intros _ n d r l Hx; discriminate Hx|intros _ k0 Hx; discriminate Hx|exact C].
    - intros st w k (A & B & C). split; [|split]; [intros _ n d r l Hx; discriminate Hx|intros _ k0 Hx; discriminate Hx|exact C].
    - split; [|split]; [intros Hx; discriminate Hx|intros _ k Hk; discriminate Hk|intros _ Hr; discriminate Hr].
    - intros st t fr rest sg H Hg0 _ Hlr HW.
      destruct (unguard _ _ (creach_roles P Hsw Hhd Hbody _ _ H) Hg0) as [HG HA].
      destruct (unguard _ _ (creach_exec P Hsw Hhd Hbody Hnd _ _ H) Hg0) as [GE HE].
      apply waitA_step; try assumption. exact (creach_base P Hsw Hhd Hbody _ _ H).
  Qed.
End WaitInv.
