(* What only ever grows along an execution: task identities (id, name, helper flag) are never changed and new tasks
   are appended with fresh ids; the trace is only extended; set events stay set. *)
From MLPE Require Import Engine.Run Proofs.ExecLemmas.

Definition ident (x : task frame) : tid * tname * bool := (t_id x, t_name x, t_helper x).

Definition tr_id (tr : tid * tname * bool) : nat := fst (fst tr).

Record evolves (st st' : mstate) : Prop := {
  ev_tasks : exists new, map ident (st_tasks st') = map ident (st_tasks st) ++ new
                         /\ Forall (fun tr => st_next st <= tr_id tr < st_next st') new
                         /\ NoDup (map tr_id new);
  ev_next : st_next st <= st_next st';
  ev_trace : exists new, st_trace st' = new ++ st_trace st;
  ev_events : forall n, event_is_set n st = true -> event_is_set n st' = true
}.

Lemma NoDup_app_intro {A} (a b : list A) :
  NoDup a -> NoDup b -> (forall x, In x a -> In x b -> False) -> NoDup (a ++ b).
Proof.
  intros Ha Hb Hd. induction a as [|x r IH]; cbn [app]; [exact Hb|]. inversion Ha; subst. constructor.
  - intros Hin. apply in_app_or in Hin. destruct Hin as [Hin|Hin]; [contradiction|]. apply (Hd x); [left; reflexivity|exact Hin].
  - apply IH; [assumption|]. intros y Hy. apply Hd. right. exact Hy.
Qed.

Lemma map_ident_upd t ts (l : list (task frame)) :
  map ident (upd_task t (fun x => {| t_id := t_id x; t_name := t_name x; t_state := ts; t_helper := t_helper x |}) l) = map ident l.
Proof.
  induction l as [|y r IH]; cbn [upd_task map]; [reflexivity|].
  destruct (Nat.eqb (t_id y) t); cbn [map]; [reflexivity|]. rewrite IH. reflexivity.
Qed.

Lemma evolves_still st st' new :
  map ident (st_tasks st') = map ident (st_tasks st) -> st_next st' = st_next st -> st_trace st' = new ++ st_trace st ->
  (forall n, event_is_set n st = true -> event_is_set n st' = true) -> evolves st st'.
Proof.
  intros T N R E. constructor.
  - exists []. rewrite T, app_nil_r. split; [reflexivity|split; constructor].
  - lia.
  - exists new. exact R.
  - exact E.
Qed.

Lemma evolves_refl st : evolves st st.
Proof. apply (evolves_still st st []); auto. Qed.

Lemma evolves_trans a b c : evolves a b -> evolves b c -> evolves a c.
Proof.
  intros [[n1 [T1 [F1 D1]]] N1 [r1 R1] E1] [[n2 [T2 [F2 D2]]] N2 [r2 R2] E2]. constructor.
  - exists (n1 ++ n2). rewrite T2, T1, app_assoc. split; [reflexivity|]. split.
    + apply Forall_app. split.
      * eapply Forall_impl; [|exact F1]. cbn. intros x Hx. lia.
      * eapply Forall_impl; [|exact F2]. cbn. intros x Hx. lia.
    + rewrite map_app. apply NoDup_app_intro; [exact D1|exact D2|].
      intros i H1 H2. apply in_map_iff in H1. destruct H1 as [x1 [<- H1]]. apply in_map_iff in H2. destruct H2 as [x2 [E H2]].
      rewrite Forall_forall in F1, F2. specialize (F1 _ H1). specialize (F2 _ H2). cbv beta in F1, F2. lia.
  - lia.
  - exists (r2 ++ r1). rewrite R2, R1, app_assoc. reflexivity.
  - auto.
Qed.

Section Inst.
  Variable P : prog.

  Lemma ev_emit_obs o st : evolves st (emit_obs o st).
  Proof. apply (evolves_still _ _ [o]); auto. Qed.
  Lemma ev_with_store f st : evolves st (with_store f st). Proof. apply (evolves_still _ _ []); auto. Qed.
  Lemma ev_bump c st : evolves st (bump c st). Proof. apply (evolves_still _ _ []); auto. Qed.
  Lemma ev_set_adddata k v st : evolves st (set_adddata k v st). Proof. apply (evolves_still _ _ []); auto. Qed.
  Lemma ev_push_ready t st : evolves st (push_ready t st). Proof. apply (evolves_still _ _ []); auto. Qed.
  Lemma ev_set_waiters w st : evolves st (set_waiters w st). Proof. apply (evolves_still _ _ []); auto. Qed.
  Lemma ev_dequeue st : evolves st (dequeue st). Proof. apply (evolves_still _ _ []); auto. Qed.
  Lemma ev_set_tstate t ts st : evolves st (set_tstate t ts st).
  Proof. apply (evolves_still _ _ []); auto. apply map_ident_upd. Qed.
  Lemma ev_add_event n st : evolves st (add_event n st).
  Proof. apply (evolves_still _ _ []); auto. intros k H. unfold event_is_set in *. cbn. rewrite mem_add_set_eq, H. apply orb_true_r. Qed.
  Lemma ev_abort st : evolves st (abort P st).
  Proof. apply (evolves_still _ _ []); auto. cbn. rewrite map_map. reflexivity. Qed.
  Lemma ev_spawn nm h k st : evolves st (fst (spawn nm h k st)).
  Proof.
    constructor; cbn.
    - exists [(st_next st, nm, h)]. rewrite map_app. split; [reflexivity|]. split.
      + constructor; [cbn; lia|constructor].
      + cbn. constructor; [intros []|constructor].
    - lia.
    - exists [OSpawn (st_next st) nm]. reflexivity.
    - auto.
  Qed.

  Definition ev_step_frame := R_step_frame P evolves evolves_refl evolves_trans ev_emit_obs ev_with_store ev_bump ev_set_adddata
                                           ev_push_ready ev_set_waiters ev_set_tstate ev_spawn ev_add_event.
  Definition ev_action := R_action P evolves evolves_refl evolves_trans ev_emit_obs ev_with_store ev_bump ev_set_adddata
                                   ev_push_ready ev_set_waiters ev_set_tstate ev_spawn ev_add_event ev_dequeue ev_abort.
  Definition ev_sched := R_sched P evolves evolves_refl evolves_trans ev_emit_obs ev_with_store ev_bump ev_set_adddata
                                 ev_push_ready ev_set_waiters ev_set_tstate ev_spawn ev_add_event ev_dequeue ev_abort.
  Definition ev_reachable := R_reachable P evolves evolves_refl evolves_trans ev_emit_obs ev_with_store ev_bump ev_set_adddata
                                         ev_push_ready ev_set_waiters ev_set_tstate ev_spawn ev_add_event ev_dequeue ev_abort.
  Definition ev_exec := R_exec P evolves evolves_refl evolves_trans ev_emit_obs ev_with_store ev_bump ev_set_adddata
                               ev_push_ready ev_set_waiters ev_set_tstate ev_spawn ev_add_event ev_abort.

  (* whatever has evolved from the initial state: the first task is the one running PipelineChart.run, it alone has
     id 0, and task ids are pairwise distinct *)
  Lemma evolved_shape st :
    evolves (init_state) st ->
    exists x rest, st_tasks st = x :: rest /\ t_id x = main_tid /\ t_helper x = false
                   /\ Forall (fun y => t_id y <> main_tid) rest /\ NoDup (map t_id (st_tasks st)) /\ 1 <= st_next st.
  Proof.
    intros H. destruct (ev_tasks _ _ H) as [new [E [F D]]]. pose proof (ev_next _ _ H) as N. cbn in E, F, N.
    destruct (st_tasks st) as [|x rest] eqn:T; [discriminate|]. cbn [map] in E. unfold ident at 1 3 in E. cbn [t_id t_name t_helper] in E. injection E as E1 E2 E3 E4.
    exists x, rest. split; [reflexivity|]. split; [exact E1|]. split; [exact E3|].
    assert (Hids : map t_id rest = map tr_id new).
    { rewrite <- E4, map_map. reflexivity. }
    split; [|split; [|exact N]].
    - rewrite Forall_forall. intros y Hy Hc. apply (in_map t_id) in Hy. rewrite Hids in Hy.
      apply in_map_iff in Hy. destruct Hy as [tr [Htr Hin]]. rewrite Forall_forall in F. specialize (F _ Hin). cbn in F.
      unfold main_tid in Hc. lia.
    - cbn [map]. constructor; [|rewrite Hids; exact D]. rewrite E1, Hids. intros Hin.
      apply in_map_iff in Hin. destruct Hin as [tr [Htr Hin]]. rewrite Forall_forall in F. specialize (F _ Hin). cbn in F. lia.
  Qed.

  Lemma reachable_next st : reachable P st -> 1 <= st_next st.
  Proof. intros H. pose proof (ev_next _ _ (ev_reachable st H)) as N. cbn in N. exact N. Qed.

  Lemma reachable_find_main st :
    reachable P st -> exists x, find_task main_tid (st_tasks st) = Some x /\ t_helper x = false /\ t_id x = main_tid.
  Proof.
    intros H. destruct (evolved_shape st (ev_reachable st H)) as [x [rest [T [Hid [Hh _]]]]]. exists x.
    rewrite T. cbn [find_task]. rewrite Hid. auto.
  Qed.

  Lemma reachable_ids st x :
    reachable P st -> In x (st_tasks st) -> t_id x < st_next st.
  Proof.
    intros H Hx. destruct (ev_tasks _ _ (ev_reachable st H)) as [new [E [F _]]]. cbn in E, F.
    apply (in_map ident) in Hx. rewrite E in Hx. destruct Hx as [Hx|Hx].
    - unfold ident in Hx. inversion Hx. pose proof (reachable_next st H). lia.
    - rewrite Forall_forall in F. specialize (F _ Hx). cbn in F. lia.
  Qed.
End Inst.
