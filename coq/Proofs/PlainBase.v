(* Plain programs: the facts of PlainWorld / PlainLive / StackInv / WaitInv, available at every point INSIDE a loop iteration
   (configuration-level reachability of Proofs/Micro.v). Later invariants are proved by induction over `creach` with these at hand. *)
From MLPE Require Import Engine.Run Proofs.ExecLemmas Proofs.Evolve Proofs.StackInv Proofs.WaitInv Proofs.PlainWorld Proofs.PlainStep Proofs.PlainLive Proofs.Micro.

Section Base.
  Variable P : prog.
  Notation G := (b_graph (build (p_decls P) (p_inp P) (p_out P))).
  Hypothesis Hsw : forall n, is_switch G n = false.
  Hypothesis Hhd : forall n, is_head G n = false.
  Hypothesis Hbody : forall i kw a v, p_body P i kw a = OVal v -> clean v = true.

  Definition cur_ok (st : mstate) (c : running) : Prop :=
    match c with
    | None => True
    | Some (t, k, sg) =>
      exists x, find_task t (st_tasks st) = Some x /\ plain_stack P k = true /\ clean_sig sg /\ forallb (owner (t_name x)) k = true
                /\ chainb k = true /\ (t = main_tid -> main_stack k = true) /\ (exists k0 sg0, t_state x = TReady k0 sg0)
    end.

  Record base (st : mstate) (c : running) : Prop := {
    b_ps : PS st;
    b_plain : tasks_ok (plain_TP P) st;
    b_owner : tasks_ok owner_TP st;
    b_stacks : stacks_ok st;
    b_wk : tasks_ok wk_TP st;
    b_wc : wc st;
    b_ev : evolves (init_state) st;
    b_cur : cur_ok st c
  }.

  Lemma base_none st c : base st c -> base st None.
  Proof. intros [A B C D E F G0 _]. constructor; auto. exact I. Qed.

  Lemma base_next st c : base st c -> 1 <= st_next st.
  Proof. intros H. pose proof (ev_next _ _ (b_ev _ _ H)) as N. cbn in N. exact N. Qed.

  Lemma base_running st t fr rest sg :
    base st (Some (t, fr :: rest, sg)) ->
    exists x0, find_task t (st_tasks st) = Some x0 /\ In x0 (st_tasks st) /\ t_id x0 = t /\
               plain_frame P fr = true /\ plain_stack P rest = true /\ clean_sig sg /\
               owner (t_name x0) fr = true /\ forallb (owner (t_name x0)) rest = true /\ chainb (fr :: rest) = true.
  Proof.
    intros Hb. destruct (b_cur _ _ Hb) as [x0 [Hf0 [Hk [Hs [Ho [Hc _]]]]]]. destruct (find_task_in _ _ _ Hf0) as [Hin0 Hid0].
    cbn [plain_stack forallb] in Hk, Ho. apply andb_true_iff in Hk. apply andb_true_iff in Ho. exists x0. tauto.
  Qed.

  Theorem creach_base : forall st c, creach P st c -> base st c.
  Proof.
    intros st c H. pose proof (creach_evolves P st c H) as Ev.
    induction H as [|st t rest x k sg H IH Hq Hf Ht|st t rest H IH Hq|st t fr rest sg H IH|st t sg H IH|st c H IH|st g H IH|st H IH];
      [|specialize (IH (creach_evolves P _ _ H))..].
    -
      constructor.
      + unfold PS, plain_store; cbn; auto.
      + unfold tasks_ok, init_state. cbn. constructor; [|constructor]. unfold plain_TP. cbn. auto.
      + unfold tasks_ok, init_state. cbn. constructor; [|constructor]. reflexivity.
      + unfold stacks_ok, tasks_ok, init_state. cbn. constructor; [|constructor]. unfold stack_TP, main_tid. cbn.
        split; [split; reflexivity|]. split; [|auto]. split; [discriminate|]. split; reflexivity.
      + unfold tasks_ok, init_state. cbn. constructor; [exact I|constructor].
      + intros t x w k Hx Hw. unfold init_state, spawn in Hx. destruct t; cbn in Hx; [|discriminate Hx]. inversion Hx; subst. discriminate Hw.
      + apply evolves_refl.
      + exact I.
    -
      destruct IH as [A B C D E F G0 _]. destruct (find_task_in _ _ _ Hf) as [Hin Hid].
      constructor; try (apply ok_dequeue; assumption).
      + exact A.
      + apply wc_dequeue. exact F.
      + exact Ev.
      + cbn [cur_ok]. exists x. split; [exact Hf|].
        pose proof B as B'. pose proof C as C'. pose proof D as D'. unfold stacks_ok, tasks_ok in B', C', D'. rewrite Forall_forall in B', C', D'.
        pose proof (B' x Hin) as Hb. unfold plain_TP in Hb. rewrite Ht in Hb. destruct Hb as [Hb1 Hb2].
        pose proof (C' x Hin) as Hc. unfold owner_TP in Hc. rewrite Ht in Hc.
        destruct (D' x Hin) as [_ Hd]. rewrite Ht in Hd. destruct Hd as [[Hd1 [Hd2 Hd3]] _].
        repeat split; try assumption; [intros ->; apply Hd3; exact Hid|eauto].
    -
      destruct IH as [A B C D E F G0 _].
      constructor; try (apply ok_dequeue; assumption); [exact A|apply wc_dequeue; exact F|exact Ev|exact I].
    -
      pose proof (base_next _ _ IH) as Hn.
      destruct IH as [A B C D E F G0 [x [Hf [Hk [Hs [Ho [Hc [Hm Hrdy]]]]]]]].
      cbn [plain_stack forallb] in Hk, Ho. apply andb_true_iff in Hk. destruct Hk as [Kf Kr]. apply andb_true_iff in Ho. destruct Ho as [Of Or].
      pose proof (plain_step_dir P Hbody t fr sg st Kf Hs A) as Hd.
      pose proof (plain_step_store P t fr sg st Kf Hs A) as Hst.
      pose proof (plain_step_tasks P Hsw Hhd t fr sg st Kf Hs A B) as Hpt.
      pose proof (plain_step_tasks_gen P Hsw Hhd owner_TP owner_wake owner_cancel_ready owner_cancel_wait (owner_launcher P) (owner_node P) t fr sg st Kf Hs A C) as Hot.
      pose proof (plain_step_owner P (t_name x) t fr sg st Kf Of Hs A) as Hod.
      pose proof (step_frame_tasks_ok P stack_TP stack_TP_wake stack_TP_cancel_ready stack_TP_cancel_wait stack_TP_spawn t fr sg st Hn D) as Hstk.
      pose proof (step_frame_tasks_ok P wk_TP wk_wake wk_cancel_ready wk_cancel_wait wk_spawn t fr sg st Hn E) as Hwk.
      pose proof (wc_step_frame P t fr sg st F) as Hwc.
      pose proof (ev_step_frame P t fr sg st) as Hev.
      pose proof (step_frame_dir_ok P t fr sg st) as Hdo.
      pose proof (step_suspend_kind P t fr sg st) as Hsk.
      destruct (evolves_find _ _ _ _ Hev Hf) as [x' [Hf' [Hnm [Hh Hid']]]].
      assert (Hrdy' : exists k0 sg0, t_state x' = TReady k0 sg0).
      { set (RT := fun y : task frame => t_id y = t -> exists k0 sg0, t_state y = TReady k0 sg0).
        assert (R0 : tasks_ok RT st).
        { unfold tasks_ok. rewrite Forall_forall. intros y Hy Hi. destruct (find_task_in _ _ _ Hf) as [Hix Hidx].
          destruct (evolved_shape _ G0) as [xa [ra [_ [_ [_ [_ [Hnd _]]]]]]].
          assert (y = x) by (apply (nodup_ids_inj _ _ _ Hnd Hy Hix); congruence). subst y. exact Hrdy. }
        assert (R1 : tasks_ok RT (fst (step_frame P t fr sg st))).
        { apply (step_frame_tasks_ok P RT); try assumption; unfold RT.
          - intros y w k Hy Hp Hi. cbn. eauto.
          - intros y k s Hy Hp Hi. cbn. eauto.
          - intros y w k Hy Hp Hi. cbn. eauto.
          - intros i nm f _ _ _. cbn. eauto. }
        unfold tasks_ok in R1. rewrite Forall_forall in R1. destruct (find_task_in _ _ _ Hf') as [Hix' Hidx']. exact (R1 x' Hix' Hidx'). }
      assert (Hseg : forall k', seg_ok fr k' -> (k' ++ rest) <> [] /\ chainb (k' ++ rest) = true /\ (t = main_tid -> main_stack (k' ++ rest) = true)).
      { intros k' [Hne' [Hkc [Hl Hmk]]]. split; [destruct k'; [contradiction|discriminate]|]. split.
        - apply (chainb_app fr); assumption.
        - intros Ht. specialize (Hm Ht). unfold main_stack in *. rewrite forallb_app. cbn [forallb] in Hm.
          apply andb_true_iff in Hm. destruct Hm as [Hf0 Hr]. rewrite (Hmk Hf0), Hr. reflexivity. }
      destruct (step_frame P t fr sg st) as [st1 [w k'|k'|k' sg'|sg']]; cbn [after_step fst snd dir_plain dir_frames dir_ok] in *.
      +
        destruct (Hseg k' Hdo) as [S1 [S2 S3]].
        constructor.
        * exact Hst.
        * apply ok_suspend; [exact Hpt|]. intros y _ _. unfold plain_TP. cbn. rewrite plain_stack_app, Hd. exact Kr.
        * apply ok_suspend; [exact Hot|]. intros y Hy _. unfold owner_TP. cbn. rewrite Hf' in Hy. inversion Hy; subst y. rewrite Hnm, forallb_app, Hod. exact Or.
        * apply ok_suspend; [exact Hstk|]. intros y Hy [Hy1 _]. split; [exact Hy1|]. cbn. destruct (find_task_in _ _ _ Hy) as [_ Hid]. rewrite Hid. auto.
        * apply ok_suspend; [exact Hwk|]. intros y _ _. unfold wk_TP. cbn. destruct (Hsk w k' eq_refl) as [f [r [-> Hw]]]. exact Hw.
        * apply wc_suspend. exact Hwc.
        * exact Ev.
        * exact I.
      +
        destruct (Hseg k' Hdo) as [S1 [S2 S3]].
        constructor.
        * exact Hst.
        * apply ok_push_ready. apply ok_set_tstate; [exact Hpt|]. intros y _ _. unfold plain_TP. cbn. rewrite plain_stack_app, Hd. auto.
        * apply ok_push_ready. apply ok_set_tstate; [exact Hot|]. intros y Hy _. unfold owner_TP. cbn. rewrite Hf' in Hy. inversion Hy; subst y. rewrite Hnm, forallb_app, Hod. exact Or.
        * apply ok_push_ready. apply ok_set_tstate; [exact Hstk|]. intros y Hy [Hy1 _]. split; [exact Hy1|]. cbn. destruct (find_task_in _ _ _ Hy) as [_ Hid]. rewrite Hid. auto.
        * apply ok_push_ready. apply ok_set_tstate; [exact Hwk|]. intros y _ _. exact I.
        * apply wc_push_ready. apply wc_unpark; [exact I|exact Hwc].
        * exact Ev.
        * exact I.
      +
        destruct (Hseg k' Hdo) as [S1 [S2 S3]]. destruct Hd as [Hd1 Hd2].
        constructor; try assumption.
        exists x'. rewrite Hnm. unfold plain_stack in *. rewrite !forallb_app, Hd1, Hod. auto 12.
      +
        constructor; try assumption.
        exists x'. rewrite Hnm. repeat split; try assumption; [apply (chainb_tail fr); exact Hc|].
        intros Ht. specialize (Hm Ht). apply (main_stack_tail fr). exact Hm.
    -
      destruct IH as [A B C D E F G0 [x [Hf _]]].
      constructor.
      + exact A.
      + apply ok_set_tstate; [exact B|]. intros y _ _. exact I.
      + apply ok_set_tstate; [exact C|]. intros y _ _. exact I.
      + apply ok_set_tstate; [exact D|]. intros y _ [Hy _]. split; [exact Hy|exact I].
      + apply ok_set_tstate; [exact E|]. intros y _ _. exact I.
      + apply wc_unpark; [exact I|exact F].
      + exact Ev.
      + exact I.
    -
      destruct IH as [A B C D E F G0 _].
      constructor.
      + exact A.
      + apply ok_abort; [|exact B]. intros y k0 _. exact I.
      + apply ok_abort; [|exact C]. intros y k0 _. exact I.
      + apply ok_abort; [|exact D]. intros y r [Hy _]. split; [exact Hy|exact I].
      + apply ok_abort; [|exact E]. intros y k0 _. exact I.
      + apply wc_abort.
      + exact Ev.
      + exact I.
    -
      destruct IH as [A B C D E F G0 _].
      constructor.
      + unfold complete_gate. apply ps_wake_all. exact A.
      + apply (complete_gate_tasks_ok (plain_TP P) (plain_TP_wake P)). exact B.
      + apply (complete_gate_tasks_ok owner_TP owner_wake). exact C.
      + apply (complete_gate_tasks_ok stack_TP stack_TP_wake). exact D.
      + apply (complete_gate_tasks_ok wk_TP wk_wake). exact E.
      + unfold complete_gate. apply wc_wake_all. exact F.
      + exact Ev.
      + exact I.
    -
      destruct IH as [A B C D E F G0 _].
      constructor.
      + apply ps_cancel_task. exact A.
      + apply (ok_cancel_task (plain_TP P) (plain_TP_cancel_ready P) (plain_TP_cancel_wait P)). exact B.
      + apply (ok_cancel_task owner_TP owner_cancel_ready owner_cancel_wait). exact C.
      + apply (ok_cancel_task stack_TP stack_TP_cancel_ready stack_TP_cancel_wait). exact D.
      + apply (ok_cancel_task wk_TP wk_cancel_ready wk_cancel_wait). exact E.
      + apply wc_cancel_task. exact F.
      + exact Ev.
      + exact I.
  Qed.
End Base.
