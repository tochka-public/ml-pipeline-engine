(* C20: the viewer's description is a faithful projection of the built graph -- one entry per node, one edge per dependency
   between existing entries, each entry describing its node, a type table covering every type that occurs -- and the synthetic
   switch / one-of ids get their type by prefix. *)
From Coq Require Import String Ascii.
From MLPE Require Import Base.Graph Pure.FsStore Pure.Viewer Proofs.FsStoreProofs.
Local Open Scope list_scope.

Lemma prefixb_app p s : prefixb p (p ++ s) = true.
Proof. induction p as [|x p IH]; simpl; [reflexivity|]. rewrite Nat.eqb_refl. exact IH. Qed.

Lemma prefixb_trans_app m p s : prefixb m p = true -> prefixb m (p ++ s) = true.
Proof.
  revert p; induction m as [|x m IH]; intros p H; simpl; [reflexivity|].
  destruct p as [|y p]; simpl in *; [discriminate|]. apply andb_true_iff in H. destruct H as [-> H]. simpl. apply IH. exact H.
Qed.

Lemma prefixb_incomparable m p s : prefixb m p = false -> prefixb p m = false -> prefixb m (p ++ s) = false.
Proof.
  revert p; induction m as [|x m IH]; intros p H1 H2; simpl in *; [discriminate|].
  destruct p as [|y p]; simpl in *; [discriminate|].
  destruct (Nat.eqb x y) eqn:E; simpl in *; [|reflexivity].
  apply Nat.eqb_eq in E. subst y. rewrite Nat.eqb_refl in H2. simpl in H2. apply IH; assumption.
Qed.

(* the member found for an id starting with [pre]: every earlier member is incomparable with [pre], the member
   itself is a prefix of [pre]  -- decided on the regenerated table *)
Fixpoint finds (pre ty : str) (members : list str) : bool :=
  match members with
  | [] => false
  | m :: r => if str_eqb m ty then prefixb m pre
              else negb (prefixb m pre) && negb (prefixb pre m) && finds pre ty r
  end.

Lemma finds_correct pre ty members s :
  finds pre ty members = true -> find (fun m => prefixb m (pre ++ s)) members = Some ty.
Proof.
  induction members as [|m r IH]; simpl; [discriminate|].
  destruct (str_eqb m ty) eqn:E.
  - intros H. rewrite (prefixb_trans_app m pre s H). apply str_eqb_spec in E. subst. reflexivity.
  - intros H. rewrite !andb_true_iff, !negb_true_iff in H. destruct H as [[H1 H2] H3].
    rewrite (prefixb_incomparable m pre s H1 H2). apply IH. exact H3.
Qed.

Theorem by_prefix_switch s : by_prefix (switch_prefix ++ s) = Some (codes "switch"%string).
Proof. apply finds_correct. vm_compute. reflexivity. Qed.

Theorem by_prefix_oneof s : by_prefix (oneof_prefix ++ s) = Some (codes "input_one_of"%string).
Proof. apply finds_correct. vm_compute. reflexivity. Qed.

Section Gen.
  Variable g : graph.
  Variable node_map : list nat.
  Variable info : nat -> ninfo.
  Let cfg := generate g node_map info.

  Theorem one_entry_per_node : map vn_id (vc_nodes cfg) = node_keys g.
  Proof.
    unfold cfg, generate. simpl. rewrite map_map. rewrite <- (map_id (node_keys g)) at 2.
    apply map_ext. intros k. unfold gen_node. destruct k; simpl; try reflexivity. destruct (mem Nat.eqb i node_map); reflexivity.
  Qed.

  Theorem one_edge_per_dependency : map (fun e => (ve_source e, ve_target e)) (vc_edges cfg) = map fst (g_edges g).
  Proof.
    unfold cfg, generate. simpl. rewrite map_map. apply map_ext. intros [[u v] a]. reflexivity.
  Qed.

  Theorem edge_endpoints_exist :
    (forall e, In e (g_edges g) -> has_node g (fst (fst e)) = true /\ has_node g (snd (fst e)) = true) ->
    forall e, In e (vc_edges cfg) ->
              In (ve_source e) (map vn_id (vc_nodes cfg)) /\ In (ve_target e) (map vn_id (vc_nodes cfg)).
  Proof.
    intros H e He. rewrite one_entry_per_node. unfold cfg, generate in He. simpl in He. apply in_map_iff in He.
    destruct He as [x [<- Hx]]. simpl. destruct (H x Hx) as [A B]. unfold has_node in *.
    split; apply (mem_true_iff key_eqb key_eqb_spec); assumption.
  Qed.

  Theorem entries_describe_nodes :
    forall n, In n (vc_nodes cfg) ->
              match vn_id n with
              | KN i => if mem Nat.eqb i node_map
                        then vn_virtual n = false
                             /\ vn_data n = Some (ni_name (info i), ni_verbose (info i), ni_doc (info i))
                             /\ vn_type n = match ni_type (info i) with Some t => VTDeclared t | None => VTNone end
                        else vn_virtual n = true
              | KSw _ _ => vn_virtual n = true /\ vn_type n = VTSwitch /\ vn_data n = None
              | KOo _ _ => vn_virtual n = true /\ vn_type n = VTOneOf /\ vn_data n = None
              end.
  Proof.
    intros n Hn. unfold cfg, generate in Hn. simpl in Hn. apply in_map_iff in Hn. destruct Hn as [k [<- _]].
    destruct k as [i| |]; simpl; [|repeat split|repeat split].
    destruct (mem Nat.eqb i node_map) eqn:E; simpl; [rewrite E; repeat split|rewrite E; reflexivity].
  Qed.

  Lemma types_fold_covers ns : forall acc t,
    (In t acc \/ exists n, In n ns /\ vn_type n = t) -> t <> VTNone ->
    In t (fold_left (fun acc n => match vn_type n with
                                  | VTNone => acc
                                  | t => if mem vtype_eqb t acc then acc else acc ++ [t]
                                  end) ns acc).
  Proof.
    assert (Hspec : forall a b, vtype_eqb a b = true <-> a = b).
    { intros [] []; simpl; try (split; [discriminate|congruence]); try tauto.
      rewrite Nat.eqb_eq. split; congruence. }
    induction ns as [|n r IH]; intros acc t H Hne; simpl.
    - destruct H as [H|[n [[] _]]]. exact H.
    - apply IH; [|exact Hne]. destruct H as [H|[n0 [[<-|Hin] Ht]]].
      + left. destruct (vn_type n); try exact H; destruct (mem vtype_eqb _ acc); try exact H; apply in_or_app; left; exact H.
      + left. rewrite Ht. destruct t; try contradiction;
          (destruct (mem vtype_eqb _ acc) eqn:E; [apply (mem_true_iff vtype_eqb Hspec); exact E|apply in_or_app; right; left; reflexivity]).
      + right. exists n0. split; assumption.
  Qed.

  Theorem type_table_covers :
    forall n, In n (vc_nodes cfg) -> vn_type n <> VTNone -> In (vn_type n) (vc_types cfg).
  Proof.
    intros n Hn Hne. unfold cfg, generate. simpl. apply types_fold_covers; [|exact Hne].
    right. exists n. split; [exact Hn|reflexivity].
  Qed.
End Gen.
