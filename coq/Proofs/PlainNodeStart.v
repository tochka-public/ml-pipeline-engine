(* ALL programs, every schedule, whatever the event managers do (raise, suspend): on_node_start comes first for each
   node (C14): a body is invoked, for any attempt, in any iteration, only after every manager has been told on_node_start for
   that node.  Every stack keeps a shape (pairsS, botS) in which the retry loop sits on the frame that awaits it, and that frame
   is pushed only by the frame that continues after the emission of on_node_start, when it is resumed with a value.  The statement
   for plain programs is a special case. *)
From MLPE Require Import Engine.Run Proofs.ExecLemmas Proofs.Micro Proofs.PlainLive Proofs.PlainExec Proofs.StackAll.
Require Import Lia.

Definition start_ev (m : nat) (n : key) : obs := OEmit m EvNodeStart (Some n) None None.

Definition is_retry_frame (f : frame) : option nat :=
  match f with FRetry i _ _ _ | FRetryAfterBody i _ _ | FRetryAfterEmit i _ _ | FRetryAfterSleep i _ _ => Some i | _ => None end.

(* only the emission of on_node_start sits on the frame that continues after it; the retry loop sits on the frame that awaits it *)
Definition adjS (f g : frame) : bool :=
  match g with
  | FExecAfterStart _ n _ => match f with FEmit EvNodeStart (Some n') None None _ _ => key_eqb n' n | _ => false end
  | FEmit _ _ _ _ _ _ => false
  | _ => true
  end &&
  match is_retry_frame f with
  | Some i => match g with FExecAfterBody _ n => Nat.eqb i (real_index n) | _ => false end
  | None => true
  end.
Fixpoint pairsS (k : list frame) : bool :=
  match k with
  | f :: r => match r with g :: _ => adjS f g && pairsS r | [] => true end
  | [] => true
  end.

Lemma pairsS_tail f r : pairsS (f :: r) = true -> pairsS r = true.
Proof. cbn [pairsS]. destruct r as [|g r']; [reflexivity|]. intros H. apply andb_true_iff in H. apply H. Qed.
Lemma pairsS_head f g r : pairsS (f :: g :: r) = true -> adjS f g = true.
Proof. cbn [pairsS]. intros H. apply andb_true_iff in H. apply H. Qed.
Lemma pairsS_app fr rest k' :
  pairsS (fr :: rest) = true -> pairsS k' = true -> (forall g, adjS fr g = true -> adjS (last k' fr) g = true) -> pairsS (k' ++ rest) = true.
Proof.
  intros Hc Hk Hl. destruct k' as [|f k'']; [exact (pairsS_tail _ _ Hc)|].
  revert f Hk Hl. induction k'' as [|g r' IH]; intros f Hk Hl.
  - cbn [app last] in *. destruct rest as [|g0 r0]; [reflexivity|]. cbn [pairsS]. rewrite (Hl g0 (pairsS_head _ _ _ Hc)).
    exact (pairsS_tail _ _ Hc).
  - change ((f :: g :: r') ++ rest) with (f :: (g :: r') ++ rest). cbn [pairsS app]. cbn [pairsS] in Hk. apply andb_true_iff in Hk.
    destruct Hk as [Ha Hk]. rewrite Ha. cbn [andb]. apply IH; [exact Hk|exact Hl].
Qed.

Definition botS (k : list frame) : bool := match is_retry_frame (last k FChartStart) with Some _ => false | None => true end.
Lemma last_default_irrelevant (l : list frame) d d' : l <> [] -> last l d = last l d'.
Proof. induction l as [|x r IH]; [contradiction|]. intros _. destruct r as [|y r']; [reflexivity|]. cbn [last]. apply IH. discriminate. Qed.
Lemma botS_app fr rest k' : botS (fr :: rest) = true -> k' <> [] -> is_retry_frame (last k' fr) = is_retry_frame fr -> botS (k' ++ rest) = true.
Proof.
  intros Hb Hne Hl. unfold botS in *. destruct rest as [|g r].
  - rewrite app_nil_r. rewrite (last_default_irrelevant k' FChartStart fr Hne), Hl. exact Hb.
  - rewrite (last_app_ne k' (g :: r) FChartStart) by discriminate. exact Hb.
Qed.
Lemma botS_tail f r : botS (f :: r) = true -> botS r = true.
Proof. unfold botS. destruct r as [|g r']; [reflexivity|]. auto. Qed.

Definition is_after_body (f : frame) : option key := match f with FExecAfterBody _ n => Some n | _ => None end.

Section StartInv.
  Variable P : prog.

  Definition told (tr : list obs) (n : key) : Prop := forall m, m < p_mgrs P -> In (start_ev m n) tr.

  Definition topS (tr : list obs) (f : frame) (sg : option signal) : Prop :=
    match f with
    | FEmit EvNodeStart (Some n) None None mgr r => forall m, m < mgr + (if r then 1 else 0) -> m < p_mgrs P -> In (start_ev m n) tr
    | FExecAfterStart _ n _ => (exists v, sg = Some (SVal v)) -> told tr n
    | _ => True
    end.
  Definition topCS (tr : list obs) (k : list frame) (sg : option signal) : Prop :=
    match k with f :: _ => topS tr f sg | [] => True end.
  Definition belowS (tr : list obs) (g : frame) : Prop :=
    match g with FExecAfterStart _ n _ => told tr n | _ => True end.
  Definition deep (tr : list obs) (k : list frame) : Prop := forall f n, In f k -> is_after_body f = Some n -> told tr n.

  Lemma told_mono new tr n : told tr n -> told (new ++ tr) n.
  Proof. intros H m Hm. apply in_or_app. right. exact (H m Hm). Qed.
  Lemma topS_mono new tr f sg : topS tr f sg -> topS (new ++ tr) f sg.
  Proof.
    destruct f; cbn [topS]; try (intros; exact I).
    - destruct ev; try (intros; exact I). destruct n as [n|]; try (intros; exact I). destruct err; try (intros; exact I).
      destruct res; try (intros; exact I). intros H m Hm Hp. apply in_or_app. right. exact (H m Hm Hp).
    - intros H Hs. apply told_mono. exact (H Hs).
  Qed.
  Lemma topCS_mono new tr k sg : topCS tr k sg -> topCS (new ++ tr) k sg.
  Proof. destruct k; [auto|apply topS_mono]. Qed.
  Lemma deep_mono new tr k : deep tr k -> deep (new ++ tr) k.
  Proof. intros H f n Hf Hn. apply told_mono. exact (H f n Hf Hn). Qed.

  Definition top_afterS (tr : list obs) (fr : frame) (d : directive) : Prop :=
    match d with
    | DSuspend _ k' => topCS tr k' None
    | DYield k' => topCS tr k' (Some SGo)
    | DCont k' s' => topCS tr k' (Some s')
    | DRet s' => forall v, s' = SVal v -> forall g, adjS fr g = true -> belowS tr g
    end.

  Lemma step_pairsS_all t fr sg st :
    pairsS (dir_frames (snd (step_frame P t fr sg st))) = true /\
    (forall g, adjS fr g = true -> adjS (last (dir_frames (snd (step_frame P t fr sg st))) fr) g = true) /\
    dir_ne (snd (step_frame P t fr sg st)) = true /\
    is_retry_frame (last (dir_frames (snd (step_frame P t fr sg st))) fr) = is_retry_frame fr.
  Proof.
    split; [|split; [|split; [apply step_dir_ne|]]]; destruct (step_pushes P t fr sg st) as [[s' ->]|Hp]; cbn [dir_frames pairsS last]; auto;
      destruct Hp; cbn [pairsS last]; unfold adjS; cbn [is_retry_frame andb real_index]; rewrite ?key_eqb_refl, ?Nat.eqb_refl; try reflexivity;
      intros g Hg; destruct g; cbn [is_retry_frame andb] in *; try reflexivity; try discriminate Hg; exact Hg.
  Qed.

  Lemma step_topS_all t fr sg st :
    topS (st_trace st) fr (Some sg) ->
    top_afterS (st_trace (fst (step_frame P t fr sg st))) fr (snd (step_frame P t fr sg st)).
  Proof.
    step_cases; cbn [fst snd]; unfold emit_frames; cbn [top_afterS topCS topS]; intros Htop;
      try exact I;
      try (intros ? Hv; discriminate Hv).
    all: try (intros m Hm; exfalso; lia).
    all: try (intros v' _ g Hg; destruct g; unfold adjS in Hg; cbn [belowS is_retry_frame andb] in *; try exact I; try discriminate Hg).
    all: repeat match goal with
                | |- context [match ?e with EvPipelineStart => _ | _ => _ end] => destruct e
                | H : context [match ?e with EvPipelineStart => _ | _ => _ end] |- _ => destruct e
                | |- context [match ?o with Some _ => _ | None => _ end] => destruct o
                | H : context [match ?o with Some _ => _ | None => _ end] |- _ => destruct o
                end; try exact I; try discriminate.
    all: cbn [st_trace emit_obs bump fst] in *.
    all: try (intros m Hm Hp; first [apply Htop; lia | destruct (Nat.eq_dec m mgr) as [->|Hne]; [left; reflexivity|right; apply Htop; lia]]).
    all: try match goal with Hg : (key_eqb _ _ && true)%bool = true |- _ => rewrite andb_true_r in Hg; apply key_eqb_spec in Hg; subst end.
    all: try (intros m Hm; apply Htop; [|exact Hm]; match goal with Hq : (_ <=? _) = true |- _ => apply Nat.leb_le in Hq; lia end).
    all: try (apply Htop; eauto).
  Qed.

  Lemma step_after_body_all t fr sg st f n :
    In f (dir_frames (snd (step_frame P t fr sg st))) -> is_after_body f = Some n ->
    exists d0 f0 v, fr = FExecAfterStart d0 n f0 /\ sg = SVal v.
  Proof.
    intros Hin Hr. destruct (step_pushed P t fr sg st f Hin) as [k' [Hp Hf]].
    destruct Hp; cbn [In] in Hf; repeat (destruct Hf as [<-|Hf]); try contradiction; try discriminate Hr; inversion Hr; subst; eauto.
  Qed.

  Definition stk_ok (tr : list obs) (k : list frame) (sg : option signal) : Prop := (pairsS k = true /\ botS k = true) /\ topCS tr k sg /\ deep tr k.
  Definition TPs (tr : list obs) (x : task frame) : Prop :=
    match t_state x with
    | TReady k sg => stk_ok tr k (Some sg)
    | TWait _ k => stk_ok tr k None
    | TDone _ => True
    end.
  Definition cur_s (tr : list obs) (c : running) : Prop := match c with Some (_, k, sg) => stk_ok tr k (Some sg) | None => True end.

  Lemma topCS_nonval tr k s s' : (forall v, s' <> Some (SVal v)) -> topCS tr k s -> topCS tr k s'.
  Proof.
    intros Hn. destruct k as [|f r]; [auto|]. cbn [topCS]. destruct f; cbn [topS]; auto.
    intros _ [v9 Hv]. exfalso. exact (Hn v9 Hv).
  Qed.
  Lemma stk_nonval tr k s s' : (forall v, s' <> Some (SVal v)) -> stk_ok tr k s -> stk_ok tr k s'.
  Proof. intros Hn (A & B & C). split; [exact A|]. split; [exact (topCS_nonval tr k s s' Hn B)|exact C]. Qed.
  Lemma stk_mono new tr k s : stk_ok tr k s -> stk_ok (new ++ tr) k s.
  Proof. intros (A & B & C). split; [exact A|]. split; [apply topCS_mono; exact B|apply deep_mono; exact C]. Qed.

  Lemma stk_single tr f : is_after_body f = None -> is_retry_frame f = None -> (forall sg, topS tr f sg) -> forall sg, stk_ok tr [f] sg.
  Proof.
    intros Hf Hr Ht sg. split; [split; [reflexivity|unfold botS; cbn [last]; rewrite Hr; reflexivity]|]. split; [exact (Ht sg)|]. intros g n [<-|[]] Hn. rewrite Hf in Hn. discriminate Hn.
  Qed.

  Definition tr_okS (tr : list obs) : Prop :=
    forall a b i k kw, tr = a ++ OStart i k kw :: b -> exists nd, real_index nd = i /\ told b nd.

  Theorem creach_start_all : forall st c, creach P st c ->
    tasks_ok (TPs (st_trace st)) st /\ cur_s (st_trace st) c /\ tr_okS (st_trace st).
  Proof.
    set (Q := fun o b => match o with OStart i _ _ => exists nd, real_index nd = i /\ told b nd | _ => True end).
    intros st c Hc. destruct (creach_sig_inv P stk_ok (after_each Q)) with (st := st) (c := c) as (A & B & C); try assumption.
    - apply stk_mono.
    - apply stk_nonval.
    - intros tr s. split; [split; reflexivity|]. split; [exact I|intros f n []].
    - apply stk_single; [reflexivity|reflexivity|intros; exact I].
    - apply after_each_one. exact I.
    - intros st0 t fr rest sg _ ((Bp & Bb) & Bt & Bd) C. cbn [topCS] in Bt.
      destruct (step_pairsS_all t fr sg st0) as (Hp1 & Hp2 & Hp3 & Hp4).
      pose proof (step_topS_all t fr sg st0 Bt) as Htop.
      destruct (step_obs P t fr sg st0) as [new [Etr Hnew]].
      assert (Hpk : pairsS (dir_frames (snd (step_frame P t fr sg st0)) ++ rest) = true) by (apply (pairsS_app fr); assumption).
      assert (Hbk : dir_frames (snd (step_frame P t fr sg st0)) <> [] -> botS (dir_frames (snd (step_frame P t fr sg st0)) ++ rest) = true)
        by (intros Hne; apply (botS_app fr); assumption).
      assert (Hdeep : deep (st_trace (fst (step_frame P t fr sg st0))) (dir_frames (snd (step_frame P t fr sg st0)) ++ rest)).
      { intros f n Hin Hn. rewrite Etr. apply told_mono. apply in_app_or in Hin. destruct Hin as [Hin|Hin]; [|exact (Bd f n (or_intror Hin) Hn)].
        destruct (step_after_body_all t fr sg st0 f n Hin Hn) as [d0 [f0 [v [-> ->]]]]. apply Bt. eauto. }
      split; [|split].
      + intros f Hs. apply spawns_spawn_frame in Hs. destruct f; try discriminate Hs; (apply stk_single; [reflexivity|reflexivity|intros; exact I]).
      + destruct (snd (step_frame P t fr sg st0)) as [w k'|k'|k' sg'|sg']; cbn [dir_frames dir_ne top_afterS app] in *.
        1-3: destruct k' as [|f1 k'']; [discriminate Hp3|]; (split; [split; [exact Hpk|apply Hbk; discriminate]|]); split; [exact Htop|exact Hdeep].
        split; [split; [exact (pairsS_tail _ _ Bp)|exact (botS_tail _ _ Bb)]|]. split; [|exact Hdeep]. destruct rest as [|g r]; [exact I|]. cbn [topCS].
        pose proof (pairsS_head _ _ _ Bp) as Hadj.
        destruct g; cbn [topS]; try exact I; try (unfold adjS in Hadj; cbn [andb] in Hadj; discriminate Hadj).
        all: intros [v0 Hv0]; inversion Hv0; subst sg'; exact (Htop v0 eq_refl _ Hadj).
      + rewrite Etr. apply after_each_app; [|exact C|].
        * intros [] b b'; cbn [Q]; auto. intros [nd [E Hn]]. exists nd. split; [exact E|apply told_mono; exact Hn].
        * (* a body is invoked from the retry loop, which sits on the frame that continues after the node's body *)
          intros o Ho. specialize (Hnew o Ho). destruct o; try exact I. destruct Hnew as [att [-> _]].
          destruct rest as [|g r]; [discriminate Bb|]. pose proof (pairsS_head _ _ _ Bp) as Hadj. unfold adjS in Hadj. cbn [is_retry_frame] in Hadj.
          apply andb_true_iff in Hadj. destruct Hadj as [_ Hadj]. destruct g; try discriminate Hadj. apply Nat.eqb_eq in Hadj.
          exists n. split; [symmetry; exact Hadj|]. apply (Bd (FExecAfterBody d n) n); [right; left; reflexivity|reflexivity].
    - split; [exact A|]. split; [exact B|]. intros a b i k kw E. exact (C a _ b E).
  Qed.
End StartInv.

Theorem bodies_start_after_node_start_all_programs P :
  forall st, reachable P st ->
    forall a b i k kw, st_trace st = a ++ OStart i k kw :: b ->
      exists nd, real_index nd = i /\ forall m, m < p_mgrs P -> In (start_ev m nd) b.
Proof. intros st Hr. exact (proj2 (proj2 (creach_start_all P st None (reachable_creach P st Hr)))). Qed.

Theorem plain_bodies_start_after_node_start P :
  plain_prog P -> (forall m ev n k, p_mgr_fault P m ev n k = false) ->
  forall st, reachable P st ->
    forall a b i k kw, st_trace st = a ++ OStart i k kw :: b ->
      exists nd, real_index nd = i /\ forall m, m < p_mgrs P -> In (start_ev m nd) b.
Proof. intros _ _. exact (bodies_start_after_node_start_all_programs P). Qed.
