(* ALL programs, every schedule, whatever the event managers do: a node's value is stored -- hence can reach a consumer, the
   artifact store or the caller -- only after every manager has been told on_node_complete(node, error=None) (C14).
   "Value": a result that is not a contained failure (inside a one-of scope a failure is stored as a result; a failure is reported
   with on_node_complete(error)).  "Node": not the synthetic head of a one-of (its result is the winning candidate's). *)
From MLPE Require Import Engine.Run Proofs.ExecLemmas Proofs.Micro Proofs.PlainLive Proofs.PlainCore Proofs.PlainEvents Proofs.StackAll.
Require Import Lia.

(* frames of _run_node / _run_recurrent_subgraph for node n: n is not a one-of head *)
Definition node_of (f : frame) : option key :=
  match f with
  | FNodeStart _ n _ | FNodeAfterExec _ n | FRecStart _ n _ | FRecLoop _ n _ _ _ _ | FRecAfterIter _ n _ _ _ => Some n
  | _ => None
  end.

Section KeyKinds.
  Variable P : prog.
  Notation G := (b_graph (build (p_decls P) (p_inp P) (p_out P))).

  Definition nhf (f : frame) : bool := match node_of f with Some n => negb (is_head G n) | None => true end.
  Definition nh_TP (x : task frame) : Prop := forallb nhf (estack (t_state x)) = true.
  Lemma spawn_nhf fr sg f : nhf fr = true -> spawns P fr sg f -> nhf f = true.
  Proof.
    unfold nhf. intros Hf. destruct f; cbn [spawns node_of]; try reflexivity; try contradiction.
    - intros (rest & l & _ & _ & -> & _). reflexivity.
    - intros (-> & _). exact Hf.
  Qed.

  Lemma step_nh_tasks t fr sg st : nhf fr = true -> tasks_ok nh_TP st -> tasks_ok nh_TP (fst (step_frame P t fr sg st)).
  Proof.
    intros Hf. apply (step_tasks_estack P (fun k => forallb nhf k = true)). intros f Hs. cbn [forallb]. rewrite (spawn_nhf fr sg f Hf Hs). reflexivity.
  Qed.

  Lemma step_nh_frames t fr sg st : nhf fr = true -> forallb nhf (dir_frames (snd (step_frame P t fr sg st))) = true.
  Proof.
    intros Hf. unfold nhf in *. destruct (step_pushes P t fr sg st) as [[s' ->]|Hp]; [reflexivity|].
    destruct Hp; cbn [forallb node_of andb] in *; rewrite ?Hf; reflexivity.
  Qed.
End KeyKinds.

Definition head_of (f : frame) : option key := match f with FOneOfLoop _ h _ | FOneOfWait _ h _ _ _ => Some h | _ => None end.

Section ValuesAll.
  Variable P : prog.
  Notation G := (b_graph (build (p_decls P) (p_inp P) (p_out P))).

  (* key kinds: node frames carry non-heads (KeyKinds above), one-of frames carry heads *)
  Definition kf (f : frame) : bool :=
    nhf P f && match head_of f with Some h => is_head G h | None => true end.
  Lemma spawn_kf fr sg f : kf fr = true -> spawns P fr sg f -> kf f = true.
  Proof.
    unfold kf. intros Hf Hs. apply andb_true_iff in Hf. rewrite (spawn_nhf P fr sg f (proj1 Hf) Hs).
    destruct f; cbn [spawns head_of] in *; try reflexivity; try contradiction. destruct Hs as (r & l & _ & _ & -> & _). reflexivity.
  Qed.

  Lemma step_kk_frames t fr sg st : kf fr = true -> forallb kf (dir_frames (snd (step_frame P t fr sg st))) = true.
  Proof.
    intros Hf. unfold kf, nhf in *. destruct (step_pushes P t fr sg st) as [[s' ->]|Hp]; [reflexivity|].
    destruct Hp; cbn [forallb node_of head_of andb] in *; rewrite ?andb_true_r in *; rewrite ?Hf; try reflexivity;
      try (apply andb_true_iff in Hf; destruct Hf as [Hf1 Hf2]; rewrite ?Hf1, ?Hf2; reflexivity).
  Qed.
End ValuesAll.

Section Announce.
  Variable P : prog.
  Notation M := (p_mgrs P).

  Definition topV (tr : list obs) (f : frame) (sg : option signal) : Prop :=
    match f with
    | FEmit EvNodeComplete (Some n) None None mgr r => forall m, m < mgr + (if r then 1 else 0) -> m < M -> In (done_ev m n) tr
    | FExecAfterOk _ n _ => (exists v, sg = Some (SVal v)) -> ann P tr n
    | FNodeAfterExec _ n => forall v, sg = Some (SVal v) -> is_exn v = false -> ann P tr n
    | _ => True
    end.
  Definition topCV (tr : list obs) (k : list frame) (sg : option signal) : Prop := match k with f :: _ => topV tr f sg | [] => True end.
  Definition belowV (tr : list obs) (g : frame) (v : value) : Prop :=
    match g with FExecAfterOk _ n _ => ann P tr n | FNodeAfterExec _ n => is_exn v = false -> ann P tr n | _ => True end.
  Definition top_afterV (tr : list obs) (fr : frame) (d : directive) : Prop :=
    match d with
    | DSuspend _ k' => topCV tr k' None
    | DYield k' => topCV tr k' (Some SGo)
    | DCont k' s' => topCV tr k' (Some s')
    | DRet s' => forall v, s' = SVal v -> forall g, adj fr g = true -> belowV tr g v
    end.

  Lemma topV_mono new tr f sg : topV tr f sg -> topV (new ++ tr) f sg.
  Proof.
    destruct f; cbn [topV]; try (intros; exact I).
    - destruct ev; try (intros; exact I). destruct n as [n|]; try (intros; exact I). destruct err; try (intros; exact I).
      destruct res; try (intros; exact I). intros H m Hm Hp. apply in_or_app. right. exact (H m Hm Hp).
    - intros H v Hv He. apply ann_mono. exact (H v Hv He).
    - intros H Hs. apply ann_mono. exact (H Hs).
  Qed.
  Lemma topCV_mono new tr k sg : topCV tr k sg -> topCV (new ++ tr) k sg.
  Proof. destruct k; [auto|apply topV_mono]. Qed.

  Lemma step_topV_all t fr sg st :
    topV (st_trace st) fr (Some sg) ->
    top_afterV (st_trace (fst (step_frame P t fr sg st))) fr (snd (step_frame P t fr sg st)).
  Proof.
    step_cases; cbn [fst snd]; unfold emit_frames; cbn [top_afterV topCV topV]; intros Htop;
      try exact I;
      try (intros ? Hv; discriminate Hv).
    all: try (intros m Hm; exfalso; lia).
    all: try (intros v' Hv' g Hg; destruct g; cbn [adj belowV] in *; try exact I; try discriminate Hg).
    all: repeat match goal with
                | |- context [match ?e with EvPipelineStart => _ | _ => _ end] => destruct e
                | H : context [match ?e with EvPipelineStart => _ | _ => _ end] |- _ => destruct e
                | |- context [match ?o with Some _ => _ | None => _ end] => destruct o
                | H : context [match ?o with Some _ => _ | None => _ end] |- _ => destruct o
                end; try exact I; try discriminate.
    all: cbn [st_trace emit_obs bump fst] in *.
    all: try (intros m Hm Hp; first [apply Htop; lia | destruct (Nat.eq_dec m mgr) as [->|Hne]; [left; reflexivity|right; apply Htop; lia]]).
    all: try match goal with Hg : key_eqb _ _ = true |- _ => apply key_eqb_spec in Hg; subst end.
    all: try (intros m Hm; apply Htop; [|exact Hm]; match goal with Hq : (_ <=? _) = true |- _ => apply Nat.leb_le in Hq; lia end).
    all: try (inversion Hv'; subst; intros He; cbn in He; discriminate He).
    all: try (intros _; apply Htop; eauto).
    all: try (apply Htop; eauto).
  Qed.
End Announce.

Section AnnounceInv.
  Variable P : prog.
  Notation G := (b_graph (build (p_decls P) (p_inp P) (p_out P))).

  Definition vk_ok (tr : list obs) (k : list frame) (sg : option signal) : Prop :=
    (pairs k = true /\ forallb (kf P) k = true) /\ topCV P tr k sg.
  Definition TPv (tr : list obs) (x : task frame) : Prop :=
    match t_state x with
    | TReady k sg => vk_ok tr k (Some sg)
    | TWait _ k => vk_ok tr k None
    | TDone _ => True
    end.
  Definition cur_v (tr : list obs) (c : running) : Prop := match c with Some (_, k, sg) => vk_ok tr k (Some sg) | None => True end.

  Lemma topCV_nonval tr k s s' : (forall v, s' <> Some (SVal v)) -> topCV P tr k s -> topCV P tr k s'.
  Proof.
    intros Hn. destruct k as [|f r]; [auto|]. cbn [topCV]. destruct f; cbn [topV]; auto.
    - intros _ v9 Hv. exfalso. exact (Hn v9 Hv).
    - intros _ [v9 Hv]. exfalso. exact (Hn v9 Hv).
  Qed.
  Lemma vk_nonval tr k s s' : (forall v, s' <> Some (SVal v)) -> vk_ok tr k s -> vk_ok tr k s'.
  Proof. intros Hn (A & B). split; [exact A|exact (topCV_nonval tr k s s' Hn B)]. Qed.
  Lemma vk_mono new tr k s : vk_ok tr k s -> vk_ok (new ++ tr) k s.
  Proof. intros (A & B). split; [exact A|apply topCV_mono; exact B]. Qed.

  Lemma TPv_wake tr x w k : t_state x = TWait w k -> TPv tr x -> TPv tr (with_ts x (TReady k SGo)).
  Proof. unfold TPv. intros E H. rewrite E in H. cbn. eapply vk_nonval; [|exact H]. intros v Hv. discriminate Hv. Qed.
  Lemma TPv_cancel_ready tr x k sg : t_state x = TReady k sg -> TPv tr x -> TPv tr (with_ts x (TReady k (SThrow XCancelled))).
  Proof. unfold TPv. intros E H. rewrite E in H. cbn. eapply vk_nonval; [|exact H]. intros v Hv. discriminate Hv. Qed.
  Lemma TPv_cancel_wait tr x w k : t_state x = TWait w k -> TPv tr x -> TPv tr (with_ts x (TReady k (SThrow XCancelled))).
  Proof. unfold TPv. intros E H. rewrite E in H. cbn. eapply vk_nonval; [|exact H]. intros v Hv. discriminate Hv. Qed.
  Lemma tasks_TPv_mono new tr st : tasks_ok (TPv tr) st -> tasks_ok (TPv (new ++ tr)) st.
  Proof. unfold tasks_ok. apply Forall_impl. intros x. unfold TPv. destruct (t_state x); auto; apply vk_mono. Qed.

  Definition value_store_ok (tr : list obs) : Prop :=
    forall a b n v, tr = a ++ OSetResult n v :: b -> is_exn v = false -> is_head G n = false -> ann P b n.

  Theorem creach_values_all : forall st c, creach P st c -> tasks_ok (TPv (st_trace st)) st /\ cur_v (st_trace st) c /\ value_store_ok (st_trace st).
  Proof.
    set (Q := fun o b => match o with OSetResult n v => is_exn v = false -> is_head G n = false -> ann P b n | _ => True end).
    intros st c Hc. destruct (creach_sig_inv P vk_ok (after_each Q)) with (st := st) (c := c) as (A & B & C); try assumption.
    - apply vk_mono.
    - apply vk_nonval.
    - intros tr s. split; [split; reflexivity|exact I].
    - split; [split; reflexivity|exact I].
    - apply after_each_one. exact I.
    - intros st0 t fr rest sg _ ((Bp & Bk) & Bt) C. cbn [topCV] in Bt. cbn [forallb] in Bk. apply andb_true_iff in Bk. destruct Bk as [Kf Kr].
      destruct (plain_step_pairs P t fr sg st0) as (Hp1 & Hp2 & Hp3).
      pose proof (step_topV_all P t fr sg st0 Bt) as Htop.
      destruct (step_obs P t fr sg st0) as [new [Etr Hnew]].
      assert (Hkk : forallb (kf P) (dir_frames (snd (step_frame P t fr sg st0)) ++ rest) = true) by (rewrite forallb_app, (step_kk_frames P t fr sg st0 Kf), Kr; reflexivity).
      assert (Hpk : pairs (dir_frames (snd (step_frame P t fr sg st0)) ++ rest) = true) by (apply (pairs_app fr); assumption).
      split; [|split].
      + intros f Hs. split; [split; [reflexivity|cbn [forallb]; rewrite (spawn_kf P fr sg f Kf Hs); reflexivity]|].
        apply spawns_spawn_frame in Hs. destruct f; try discriminate Hs; exact I.
      + destruct (snd (step_frame P t fr sg st0)) as [w k'|k'|k' sg'|sg']; cbn [dir_frames dir_ne top_afterV app] in *.
        1-3: split; [split; [exact Hpk|exact Hkk]|]; destruct k' as [|f1 k'']; [discriminate Hp3|exact Htop].
        split; [split; [exact (pairs_tail _ _ Bp)|exact Kr]|]. destruct rest as [|g r]; [exact I|]. cbn [topCV].
        pose proof (pairs_head _ _ _ Bp) as Hadj.
        destruct g; cbn [topV]; try exact I; try (cbn [adj] in Hadj; discriminate Hadj).
        * intros v0 Hv0 He. inversion Hv0; subst sg'. exact (Htop v0 eq_refl _ Hadj He).
        * intros [v0 Hv0]. inversion Hv0; subst sg'. exact (Htop v0 eq_refl _ Hadj).
      + rewrite Etr. apply after_each_app; [|exact C|].
        * intros [] b b'; cbn [Q]; auto. intros Hb He Hh. apply ann_mono. exact (Hb He Hh).
        * (* a value is stored where _run_node stores what _execute_node returned; the other stores are failures or the
             result of a one-of head *)
          intros o Ho. specialize (Hnew o Ho). destruct o; try exact I. intros He Hh. unfold kf in Kf.
          destruct Hnew as [[d [-> ->]]|[[d [c0 [od [r [-> _]]]]]|[[d [-> _]]|[[d [_ ->]]|[d [s [rsub [res [_ ->]]]]]]]]];
            try discriminate He; cbn [head_of] in Kf; try (rewrite Hh, andb_false_r in Kf; discriminate Kf).
          exact (Bt v eq_refl He).
    - split; [exact A|]. split; [exact B|]. intros a b n v E. exact (C a _ b E).
  Qed.
End AnnounceInv.

Theorem values_are_stored_after_node_complete_all_programs P :
  forall st, reachable P st ->
    forall a b n v, st_trace st = a ++ OSetResult n v :: b -> is_exn v = false ->
      is_head (b_graph (build (p_decls P) (p_inp P) (p_out P))) n = false ->
      forall m, m < p_mgrs P -> In (done_ev m n) b.
Proof.
  intros st Hr a b n v E He Hh. destruct (creach_values_all P st None (reachable_creach P st Hr)) as (_ & _ & C). exact (C a b n v E He Hh).
Qed.
