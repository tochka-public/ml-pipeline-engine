(* C06 for ALL plain programs and ALL schedules: at a quiescent point of a run that is still undecided, every node whose depth
   does not exceed the smallest depth of an unfinished node has been started -- the launcher never waits for a sibling.
   Hypotheses on the library orders as in PlainDeadlock.v, plus: the launch order is sorted by depth (networkx's topological_sort
   yields generation by generation). The seeded change C06-1 (lexicographical sort) is exactly a violation of that hypothesis. *)
From MLPE Require Import Engine.Run Proofs.ExecLemmas Proofs.Evolve Proofs.WaitInv Proofs.PlainWorld Proofs.PlainLaunch Proofs.PlainLive Proofs.Micro Proofs.PlainBase Proofs.PlainCore Proofs.PlainInv Proofs.PlainRoles Proofs.PlainExec Proofs.PlainWait Proofs.PlainDeadlock Explore.Safe.

Lemma fold_min_le (f : key -> nat) (l : list key) (a : nat) x :
  (In x l -> fold_left Nat.min (map f l) a <= f x) /\ fold_left Nat.min (map f l) a <= a.
Proof.
  revert a. induction l as [|y r IH]; intros a; cbn [map fold_left]; [split; [contradiction|lia]|].
  destruct (IH (Nat.min a (f y))) as [I1 I2]. split.
  - intros [->|Hin]; [lia|apply I1; exact Hin].
  - lia.
Qed.

Section C06.
  Variable P : prog.
  Notation G := (b_graph (build (p_decls P) (p_inp P) (p_out P))).
  Hypothesis Hsw : forall n, is_switch G n = false.
  Hypothesis Hhd : forall n, is_head G n = false.
  Hypothesis Hbody : forall i kw a v, p_body P i kw a = OVal v -> clean v = true.
  Notation order := (p_order P (maind P)).
  Hypothesis Hnd : NoDup order.
  Hypothesis Hsucc : forall n p, In p (preds G n) -> In n (p_succ_order P p).
  (* every node is launched; a dependency is shallower than its consumer; the launch order is sorted by depth *)
  Hypothesis Hall : forall n, In n (node_keys G) -> In n order.
  Hypothesis Hdepth : forall n p, In p (preds G n) -> depth_of P p < depth_of P n.
  Hypothesis Hmono : forall a n b m, order = a ++ n :: b -> In m b -> depth_of P n <= depth_of P m.

  Lemma preds_are_nodes n p : In p (preds G n) -> In p (node_keys G).
  Proof.
    unfold preds, preds_e. intros H. apply in_map_iff in H. destruct H as [[u a] [Hu H]]. cbn in Hu. subst u.
    apply in_flat_map in H. destruct H as [u [Hu H]]. destruct (alookup edge_eqb (u, n) (g_edges G)); [|contradiction].
    destruct H as [H|[]]. inversion H; subst. exact Hu.
  Qed.

  Theorem plain_c06 : forall st, reachable P st -> safe_c06 P st = true.
  Proof.
    intros st Hr. unfold safe_c06.
    destruct (st_ready st) as [|t0 r0] eqn:Hready; [|reflexivity].
    destruct (main_state st) as [[k s|w k|r]|] eqn:Hms; try reflexivity. destruct w as [c|nw|g]; try reflexivity. destruct c; try reflexivity.
    destruct (task_errors st) as [|e es] eqn:Hte; [|reflexivity].
    unfold G_. destruct (filter _ (node_keys G)) as [|n0 pend] eqn:Hpend; [reflexivity|].
    apply forallb_forall. intros n Hn.
    destruct (Nat.ltb (fold_left Nat.min (map (depth_of P) pend) (depth_of P n0)) (depth_of P n)) eqn:Hlt; [reflexivity|]. cbn [orb].
    apply Nat.ltb_ge in Hlt.
    pose proof (creach_base P Hsw Hhd Hbody _ _ (reachable_creach P st Hr)) as Hb.
    pose proof (idle_no_ready P Hsw Hhd Hbody st Hr Hready) as Snr.
    pose proof (b_wk _ _ _ Hb) as Hwk. unfold tasks_ok in Hwk. rewrite Forall_forall in Hwk.
    destruct (evolved_shape _ (b_ev _ _ _ Hb)) as [xm [rm [Tm [Hidm [Hhm _]]]]].
    assert (Hxm : In xm (st_tasks st)) by (rewrite Tm; left; reflexivity).
    assert (Esm : t_state xm = TWait (WCond CRun) k).
    { unfold main_state in Hms. rewrite Tm in Hms. cbn [find_task] in Hms. rewrite Hidm in Hms. cbn in Hms. inversion Hms. reflexivity. }
    assert (Hkm : exists k', k = FRunWait :: k').
    { pose proof (Hwk xm Hxm) as Hw. unfold wk_TP in Hw. rewrite Esm in Hw. destruct k as [|f k']; [contradiction|].
      rewrite (wait_kind_cases _ _ Hw). exists k'. reflexivity. }
    destruct Hkm as [km ->].
    destruct (idle_in_run P Hsw Hhd Hbody Hnd Hsucc st xm km Hr Hready Hxm Hidm Esm) as (HE & _ & rest & Hor & Hcase).
    pose proof (Hall n Hn) as Hno. rewrite Hor in Hno. apply in_app_or in Hno. destruct Hno as [Hlaunched|Hrest].
    - (* n has a task: it is past its first two frames *)
      apply node_names_in in Hlaunched. unfold names in Hlaunched. apply in_map_iff in Hlaunched. destruct Hlaunched as [x [Hnm Hx]].
      pose proof (allT_In _ _ _ x HE Hx) as He. cbn [estate ident fst snd] in He.
      destruct (He n Hnm) as (_ & _ & _ & _ & _ & _ & _ & _ & _ & E11). apply E11.
      destruct (t_state x) as [k0 s|w k0|r] eqn:Es; [exfalso; exact (Snr x k0 s Hx Es)| |reflexivity].
      pose proof (Hwk x Hx) as Hw. unfold wk_TP in Hw. rewrite Es in Hw. destruct k0 as [|f k']; [contradiction|].
      cbn [estack head_ok]. destruct f; try reflexivity; contradiction.
    - (* n is not launched yet: the launcher is parked before a node whose unfinished dependency is shallower than n *)
      exfalso. destruct Hcase as [->|(n' & r' & p & -> & Hp & Hfp)]; [contradiction|].
      assert (Hpp : In p (n0 :: pend)).
      { rewrite <- Hpend. apply filter_In. split; [apply (preds_are_nodes n'); exact Hp|]. unfold fin in Hfp. rewrite andb_comm. rewrite Hfp. reflexivity. }
      assert (Hmin : fold_left Nat.min (map (depth_of P) pend) (depth_of P n0) <= depth_of P p).
      { destruct (fold_min_le (depth_of P) pend (depth_of P n0) p) as [F1 F2]. destruct Hpp as [->|Hpp]; [exact F2|apply F1; exact Hpp]. }
      pose proof (Hdepth n' p Hp) as Hd1.
      assert (Hd2 : depth_of P n' <= depth_of P n) by (destruct Hrest as [->|Hin]; [lia|exact (Hmono _ _ _ _ Hor Hin)]).
      lia.
  Qed.
End C06.

(* decidable forms of the additional hypotheses *)
Fixpoint sorted_by (f : key -> nat) (l : list key) : bool :=
  match l with [] => true | x :: r => forallb (fun m => Nat.leb (f x) (f m)) r && sorted_by f r end.
Lemma sorted_by_sound f l : sorted_by f l = true -> forall a n b m, l = a ++ n :: b -> In m b -> f n <= f m.
Proof.
  induction l as [|x r IH]; intros H a n b m E Hm; [destruct a; discriminate E|].
  cbn in H. apply andb_true_iff in H. destruct H as [H1 H2]. destruct a as [|a0 a'].
  - cbn in E. inversion E; subst. rewrite forallb_forall in H1. apply Nat.leb_le. apply H1. exact Hm.
  - cbn in E. inversion E; subst. exact (IH H2 a' n b m eq_refl Hm).
Qed.

Definition c06_orders_b (P : prog) : bool :=
  let g := b_graph (build (p_decls P) (p_inp P) (p_out P)) in
  let order := p_order P (maind P) in
  forallb (fun n => mem key_eqb n order) (node_keys g)
  && forallb (fun e => negb (mem key_eqb (fst (fst e)) (preds g (snd (fst e)))) || Nat.ltb (depth_of P (fst (fst e))) (depth_of P (snd (fst e)))) (g_edges g)
  && sorted_by (depth_of P) order.

Theorem plain_programs_launch_by_depth P :
  plain_prog P -> valid_orders P -> c06_orders_b P = true -> forall st, reachable P st -> safe_c06 P st = true.
Proof.
  intros (Hg & Hb & _) (V1 & V2 & V3 & V4) Hc. destruct (graph_plain_sound _ Hg) as [Hsw Hhd].
  unfold c06_orders_b in Hc. apply andb_true_iff in Hc. destruct Hc as [Hc C3]. apply andb_true_iff in Hc. destruct Hc as [C1 C2].
  apply (plain_c06 P Hsw Hhd Hb V1 V4).
  - intros n Hn. rewrite forallb_forall in C1. apply (mem_true_iff key_eqb key_eqb_spec). apply C1. exact Hn.
  - intros n p Hp. destruct (preds_edge _ n p Hp) as [a Ha]. rewrite forallb_forall in C2. specialize (C2 _ Ha). cbn [fst snd] in C2.
    apply orb_true_iff in C2. destruct C2 as [C2|C2].
    + apply negb_true_iff in C2. apply (mem_true_iff key_eqb key_eqb_spec) in Hp. rewrite Hp in C2. discriminate C2.
    + apply Nat.ltb_lt. exact C2.
  - exact (sorted_by_sound _ _ C3).
Qed.
