(* Plain programs never deadlock: for every program whose built graph has no switch node and no one-of head and whose bodies never
   ask for another iteration -- any size and shape, retry / default settings, execution modes, event managers and artifact store
   (gated or not, raising or not) -- and for every schedule (any order of completions, cancellation by the caller at any point):
   no reachable state has an idle loop, nothing outstanding and the run still pending.  Assumed: the launch order and the
   successor order the model is parameterised by are what networkx delivers (`valid_orders`). *)
From MLPE Require Import Engine.Run Proofs.ExecLemmas Proofs.Evolve Proofs.StackInv Proofs.ReadyInv Proofs.WaitInv Proofs.PlainWorld Proofs.PlainStep Proofs.PlainLaunch Proofs.PlainLive Proofs.Micro Proofs.PlainBase Proofs.StackAll Proofs.PlainCore Proofs.PlainInv Proofs.PlainRoles Proofs.PlainExec Proofs.PlainWait.

Definition mainname_TP (x : task frame) : Prop := t_name x = TNMain -> t_id x = main_tid.

Section MainName.
  Variable P : prog.
  Notation G := (b_graph (build (p_decls P) (p_inp P) (p_out P))).
  Hypothesis Hsw : forall n, is_switch G n = false.
  Hypothesis Hhd : forall n, is_head G n = false.
  Hypothesis Hbody : forall i kw a v, p_body P i kw a = OVal v -> clean v = true.

  Theorem creach_mainname : forall st c, creach P st c -> tasks_ok mainname_TP st.
  Proof.
    intros st c H. pose proof (creach_base P Hsw Hhd Hbody st c H) as Hb0.
    induction H as [|st t rest x k sg H IH Hq Hf Ht|st t rest H IH Hq|st t fr rest sg H IH|st t sg H IH|st c H IH|st g H IH|st H IH].
    - unfold tasks_ok, init_state. cbn. constructor; [intros _; reflexivity|constructor].
    - apply ok_dequeue. apply IH. exact (creach_base P Hsw Hhd Hbody _ _ H).
    - apply ok_dequeue. apply IH. exact (creach_base P Hsw Hhd Hbody _ _ H).
    - pose proof (creach_base P Hsw Hhd Hbody _ _ H) as Hb. specialize (IH Hb).
      destruct (base_running P _ _ _ _ _ Hb) as (x0 & _ & _ & _ & Kf & _ & Hs & _).
      apply ok_after_step; [|intros y _ Hy; exact Hy].
      apply (plain_step_tasks_gen P Hsw Hhd mainname_TP); try assumption; unfold mainname_TP; try (intros; cbn in *; auto; fail);
        [intros i Hx; discriminate Hx|intros i n Hx; discriminate Hx|exact (b_ps _ _ _ Hb)].
    - apply ok_set_tstate; [apply IH; exact (creach_base P Hsw Hhd Hbody _ _ H)|]. intros y _ Hy. exact Hy.
    - apply ok_abort; [|apply IH; exact (creach_base P Hsw Hhd Hbody _ _ H)]. intros y k0 Hy. exact Hy.
    - apply (complete_gate_tasks_ok mainname_TP); [intros y w k _ Hy; exact Hy|]. apply IH. exact (creach_base P Hsw Hhd Hbody _ _ H).
    - apply (ok_cancel_task mainname_TP); [intros y k s _ Hy; exact Hy|intros y w k _ Hy; exact Hy|]. apply IH. exact (creach_base P Hsw Hhd Hbody _ _ H).
  Qed.
End MainName.

(* once manager.run has returned, the chart task never holds its frame again *)
Definition PhiL (i : idt) (ts : tstate frame) : Prop :=
  fst (fst i) = main_tid -> has_run (estack ts) || has_early (estack ts) = false.

Lemma below_run rest : chainb (FRunWait :: rest) = true -> has_run rest || has_early rest = false.
Proof.
  destruct rest as [|g r]; [reflexivity|]. intros Hc. pose proof (chainb_tail _ _ Hc) as Hc2. cbn [chainb] in Hc. apply andb_true_iff in Hc. destruct Hc as [Hg _].
  destruct g; try discriminate Hg. assert (r = []) by (apply (below_chart FChartAfterRun); [reflexivity|exact Hc2]). subst r. reflexivity.
Qed.

Lemma owner_run nm : owner nm FRunWait = true -> nm = TNMain.
Proof. destruct nm; cbn; try discriminate. reflexivity. Qed.

Lemma leaves_run_frame fr sg d : leaves_run fr sg d = true -> fr = FRunWait /\ exists s', d = DRet s'.
Proof. destruct fr; try discriminate. destruct sg; try discriminate; destruct d; try discriminate; eauto. Qed.

Section Late.
  Variable P : prog.
  Notation G := (b_graph (build (p_decls P) (p_inp P) (p_out P))).
  Hypothesis Hsw : forall n, is_switch G n = false.
  Hypothesis Hhd : forall n, is_head G n = false.
  Hypothesis Hbody : forall i kw a v, p_body P i kw a = OVal v -> clean v = true.

  Definition lateI (st : mstate) (c : running) : Prop := over st = false \/ allT PhiL st c.

  Lemma PhiL_wake : wake_closed PhiL.
  Proof. intros i w k H. exact H. Qed.

  Theorem creach_late : forall st c, creach P st c -> lateI st c.
  Proof.
    intros st c H. pose proof (creach_base P Hsw Hhd Hbody st c H) as Hb0.
    induction H as [|st t rest x k sg H IH Hq Hf Ht|st t rest H IH Hq|st t fr rest sg H IH|st t sg H IH|st c H IH|st g H IH|st H IH].
    - left. reflexivity.
    - pose proof (creach_base P Hsw Hhd Hbody _ _ H) as Hb. destruct (IH Hb) as [Ho|HL]; [left; exact Ho|right]. eapply (allT_start P); eassumption.
    - pose proof (creach_base P Hsw Hhd Hbody _ _ H) as Hb. destruct (IH Hb) as [Ho|HL]; [left; exact Ho|right]. exact HL.
    - pose proof (creach_base P Hsw Hhd Hbody _ _ H) as Hb. pose proof (creach_mainname P Hsw Hhd Hbody _ _ H) as Hmn.
      destruct (base_running P _ _ _ _ _ Hb) as (x0 & Hf0 & Hin0 & Hid0 & Kf & Kr & Hs & Of & Or & Hc).
      assert (Hmain : fr = FRunWait -> t = main_tid).
      { intros ->. rewrite <- Hid0. unfold tasks_ok in Hmn. rewrite Forall_forall in Hmn. apply (Hmn x0 Hin0). apply owner_run. exact Of. }
      pose proof (plain_step_over P t fr sg st Kf Hs (b_ps _ _ _ Hb)) as Hov.
      destruct (leaves_run fr sg (snd (step_frame P t fr sg st))) eqn:Hlr.
      +
        destruct (leaves_run_frame _ _ _ Hlr) as [Efr [s' Ed]]. subst fr. specialize (Hmain eq_refl).
        destruct (IH Hb) as [Ho|HL].
        * right. destruct (step_frame P t FRunWait sg st) as [st1 d]. cbn [snd] in Ed. subst d. cbn [after_step fst snd].
          unfold allT, tasks_ok. rewrite Forall_forall. intros y Hy. unfold TPc, PhiL. cbn [estate]. intros Hi. cbn [ident fst] in Hi.
          rewrite Hi, Hmain, Nat.eqb_refl. pose proof (below_run rest Hc) as Hbr. destruct rest; [reflexivity|exact Hbr].
        * exfalso. pose proof (allT_run _ _ _ _ _ _ x0 HL Hin0 Hid0) as Hx. unfold PhiL in Hx. cbn [ident fst] in Hx. rewrite Hid0 in Hx.
          specialize (Hx Hmain). cbn in Hx. discriminate Hx.
      + rewrite orb_false_r in Hov. destruct (IH Hb) as [Ho|HL]; [left; rewrite over_after_step, Hov; exact Ho|right].
        apply (allT_step P Hsw Hhd PhiL PhiL); try assumption.
        * apply PhiL_wake.
        * intros nm _. unfold PhiL. cbn [fst]. pose proof (base_next _ _ _ Hb). unfold main_tid. intros; lia.
        * intros y ts _ _ Hy. exact Hy.
        * intros x Hx Hid. rewrite (run_ident P st t fr sg x0 x (b_ev _ _ _ Hb) Hf0 Hx Hid). unfold PhiL. cbn [ident fst]. intros Hi.
          pose proof (allT_run _ _ _ _ _ _ x0 HL Hin0 Hid0) as Hx0. unfold PhiL in Hx0. cbn [ident fst] in Hx0. rewrite Hid0 in Hx0.
          rewrite Hid0 in Hi. specialize (Hx0 Hi). cbn [estack has_run has_early existsb] in Hx0. fold (has_run rest) in Hx0. fold (has_early rest) in Hx0.
          apply orb_false_iff in Hx0. destruct Hx0 as [Hr0 He0]. apply orb_false_iff in Hr0. destruct Hr0 as [Hr1 Hr2]. apply orb_false_iff in He0. destruct He0 as [He1 He2].
          rewrite estack_nstate, has_run_app, has_early_app, Hr2, He2, !orb_false_r.
          apply orb_false_iff. split.
          -- destruct (has_run (dir_frames (snd (step_frame P t fr sg st)))) eqn:E; [|reflexivity]. exfalso.
             destruct (plain_step_run P t fr sg st Kf Hs (b_ps _ _ _ Hb) E) as [[Efr _]|Efr]; subst fr; [discriminate He1|discriminate Hr1].
          -- destruct (has_early (dir_frames (snd (step_frame P t fr sg st)))) eqn:E; [|reflexivity]. exfalso.
             rewrite (plain_step_early P t fr sg st Kf Hs (b_ps _ _ _ Hb) E) in He1. discriminate He1.
    - pose proof (creach_base P Hsw Hhd Hbody _ _ H) as Hb. destruct (IH Hb) as [Ho|HL]; [left; exact Ho|right]. apply (allT_done P); assumption.
    - pose proof (creach_base P Hsw Hhd Hbody _ _ H) as Hb. right. unfold allT, tasks_ok, abort. cbn [st_tasks]. rewrite Forall_forall. intros y Hy.
      apply in_map_iff in Hy. destruct Hy as [x [<- _]]. unfold TPc, PhiL. cbn. intros _. reflexivity.
    - pose proof (creach_base P Hsw Hhd Hbody _ _ H) as Hb. destruct (IH Hb) as [Ho|HL]; [left|right].
      + unfold over, complete_gate. rewrite trace_wake_all. exact Ho.
      + apply allT_gate; [apply PhiL_wake|exact HL].
    - pose proof (creach_base P Hsw Hhd Hbody _ _ H) as Hb. destruct (IH Hb) as [Ho|HL]; [left|right].
      + unfold over. rewrite trace_cancel_task. exact Ho.
      + apply allT_cancel_main; [exact (b_ev _ _ _ Hb)| | |exact HL]; intros; assumption.
  Qed.
End Late.

(* what a task is parked on, by the frame on top of its stack: only the chart task waits for manager.run's condition, only the
   launcher (or a one-of loop) for a node's condition, only a duplicate request for a node's event *)
Lemma wait_kind_cases w f : wait_kind_ok w f ->
  match w with
  | WGate _ => True
  | WCond CRun => f = FRunWait
  | WCond (CNode _) => main_frame f = false /\ forall m, node_frame m f = false
  | WEvent n => f = FExecDup n
  end.
Proof.
  destruct w as [[|n]|n|g]; [| | |exact (fun _ => I)]; destruct f; cbn [wait_kind_ok]; try contradiction;
    repeat match goal with |- context [match ?b with _ => _ end] => destruct b; try contradiction end;
    first [reflexivity | intros ->; reflexivity | intros _; split; reflexivity].
Qed.

Section Idle.
  Variable P : prog.
  Notation G := (b_graph (build (p_decls P) (p_inp P) (p_out P))).
  Hypothesis Hsw : forall n, is_switch G n = false.
  Hypothesis Hhd : forall n, is_head G n = false.
  Hypothesis Hbody : forall i kw a v, p_body P i kw a = OVal v -> clean v = true.
  Notation order := (p_order P (maind P)).
  Hypothesis Hnd : NoDup order.
  Hypothesis Hsucc : forall n p, In p (preds G n) -> In n (p_succ_order P p).

  Lemma idle_no_ready st : reachable P st -> st_ready st = [] -> forall x k s, In x (st_tasks st) -> t_state x <> TReady k s.
  Proof.
    intros Hr Hready x k s Hx Hs. pose proof (base_nodup P _ _ (creach_base P Hsw Hhd Hbody _ _ (reachable_creach P st Hr))) as Hndi.
    pose proof (reachable_ready_consistent P st Hr (t_id x) x) as H. rewrite Hs, Hready in H. apply H; [discriminate|apply in_find; assumption].
  Qed.

  (* manager.run is pending, so the invariants of PlainExec / PlainWait hold; and the launcher has launched every node, or is parked
     before a node one of whose dependencies has not finished *)
  Lemma idle_in_run st xm km :
    reachable P st -> st_ready st = [] -> In xm (st_tasks st) -> t_id xm = main_tid -> t_state xm = TWait (WCond CRun) (FRunWait :: km) ->
    allT (PhiE st) st None /\ allT (PhiW P st) st None /\
    exists rest, order = node_names st ++ rest /\
                 (rest = [] \/ exists n r p, rest = n :: r /\ In p (preds G n) /\ fin st p = false).
  Proof.
    intros Hr Hready Hxm Hidm Esm. pose proof (reachable_creach P st Hr) as Hc. pose proof (creach_base P Hsw Hhd Hbody _ _ Hc) as Hb.
    pose proof (idle_no_ready st Hr Hready) as Snr.
    pose proof (b_wk _ _ _ Hb) as Hwk. unfold tasks_ok in Hwk. rewrite Forall_forall in Hwk.
    (* manager.run has not returned: the chart task still holds its frame *)
    assert (Hng : ~ guard st).
    { intros [Ho|Hm].
      - destruct (creach_late P Hsw Hhd Hbody _ _ Hc) as [Hl|HL]; [congruence|].
        pose proof (allT_In _ _ _ xm HL Hxm Hidm) as Hx. cbn [estate] in Hx. rewrite Esm in Hx. discriminate Hx.
      - unfold main_done, main_state in Hm. rewrite <- Hidm, (in_find _ _ (base_nodup P _ _ Hb) Hxm) in Hm. cbn in Hm. rewrite Esm in Hm. discriminate Hm. }
    destruct (creach_roles P Hsw Hhd Hbody _ _ Hc) as [Hg|[HG HA]]; [contradiction|].
    destruct (creach_exec P Hsw Hhd Hbody Hnd _ _ Hc) as [Hg|[GE HE]]; [contradiction|].
    destruct (creach_wait P Hsw Hhd Hbody Hnd Hsucc _ _ Hc) as [Hg|HW]; [contradiction|].
    split; [exact HE|]. split; [exact HW|].
    destruct (allT_In _ _ _ xm HW Hxm) as (_ & _ & W3). cbn [estate ident fst snd] in W3.
    assert (Hrun : In TNRun (names st)) by (apply (W3 Hidm); rewrite Esm; reflexivity).
    unfold names in Hrun. apply in_map_iff in Hrun. destruct Hrun as [xl [Hnl Hxl]].
    destruct (allT_In _ _ _ xl HA Hxl) as (_ & _ & _ & R4 & _). cbn [estate ident fst snd] in R4. destruct (R4 Hnl) as [rest [Hr0 Hor]].
    exists rest. split; [exact Hor|].
    destruct (t_state xl) as [k0 s|w k0|rr] eqn:Es.
    - exfalso. exact (Snr xl k0 s Hxl Es).
    - pose proof (Hwk xl Hxl) as Hw. unfold wk_TP in Hw. rewrite Es in Hw.
      destruct k0 as [|f k1]; [discriminate Hr0|]. destruct f; try discriminate Hr0; destruct k1; try discriminate Hr0; cbn [rest_of] in Hr0; inversion Hr0; subst rest.
      + destruct w as [c|nw|g]; contradiction.
      + destruct rest0 as [|n' r']; [destruct w as [c|nw|g]; try contradiction; destruct c; contradiction|].
        destruct w as [c|nw|g]; try contradiction. destruct c as [|n1]; try contradiction. cbn in Hw. subst n1.
        destruct (allT_In _ _ _ xl HW Hxl) as (W1 & _ & _). cbn [estate ident fst snd] in W1. rewrite Es in W1.
        destruct (W1 Hnl n' d r' locals eq_refl) as [p [Hp Hfp]]. right. eauto 8.
      + left. reflexivity.
    - destruct rr; try discriminate Hr0. cbn in Hr0. inversion Hr0. left. reflexivity.
  Qed.
End Idle.

Section NoDeadlock.
  Variable P : prog.
  Notation G := (b_graph (build (p_decls P) (p_inp P) (p_out P))).
  Notation out := (b_output (build (p_decls P) (p_inp P) (p_out P))).
  Hypothesis Hsw : forall n, is_switch G n = false.
  Hypothesis Hhd : forall n, is_head G n = false.
  Hypothesis Hbody : forall i kw a v, p_body P i kw a = OVal v -> clean v = true.
  Notation order := (p_order P (maind P)).
  (* what is assumed of the two library orders the model is parameterised by (networkx): the launch order lists the output node,
     has no repetition and puts every dependency of a node before it; the successors iterated on notification include every consumer *)
  Hypothesis Hnd : NoDup order.
  Hypothesis Hout : In out order.
  Hypothesis Htopo : forall n p a b, order = a ++ n :: b -> In p (preds G n) -> In p a.
  Hypothesis Hsucc : forall n p, In p (preds G n) -> In n (p_succ_order P p).

  Theorem plain_no_deadlock : forall st, reachable P st -> deadlocked st = false.
  Proof.
    intros st Hr. destruct (deadlocked st) eqn:Hd; [exfalso|reflexivity].
    unfold deadlocked in Hd. apply andb_true_iff in Hd. destruct Hd as [Hd Hmd]. apply andb_true_iff in Hd. destruct Hd as [Hrd Hpg].
    assert (Hready : st_ready st = []) by (destruct (st_ready st); [reflexivity|discriminate Hrd]).
    assert (Hgates : pending_gates st = []) by (destruct (pending_gates st); [reflexivity|discriminate Hpg]).
    apply negb_true_iff in Hmd. clear Hrd Hpg.
    pose proof (creach_base P Hsw Hhd Hbody _ _ (reachable_creach P st Hr)) as Hb.
    pose proof (base_nodup P _ _ Hb) as Hndi.
    (* nothing is ready, nothing waits for an external completion *)
    pose proof (idle_no_ready P Hsw Hhd Hbody st Hr Hready) as Snr.
    assert (Sng : forall x g k, In x (st_tasks st) -> t_state x <> TWait (WGate g) k).
    { intros x g k Hx Hs. pose proof (b_wc _ _ _ Hb (t_id x) x (WGate g) k (in_find _ _ Hndi Hx) Hs) as Hin.
      assert (In g (pending_gates st)) by (unfold pending_gates; apply in_flat_map; exists (WGate g, t_id x); split; [exact Hin|left; reflexivity]).
      rewrite Hgates in H. contradiction. }
    pose proof (b_wk _ _ _ Hb) as Hwk. unfold tasks_ok in Hwk. rewrite Forall_forall in Hwk.
    pose proof (b_owner _ _ _ Hb) as Hown. unfold tasks_ok in Hown. rewrite Forall_forall in Hown.
    pose proof (b_stacks _ _ _ Hb) as Hstk. unfold stacks_ok, tasks_ok in Hstk. rewrite Forall_forall in Hstk.
    (* the chart task is parked inside manager.run *)
    destruct (evolved_shape _ (b_ev _ _ _ Hb)) as [xm [rm [Tm [Hidm [Hhm _]]]]].
    assert (Hxm : In xm (st_tasks st)) by (rewrite Tm; left; reflexivity).
    assert (Hmain : exists k, t_state xm = TWait (WCond CRun) (FRunWait :: k)).
    { unfold main_done, main_state in Hmd. rewrite Tm in Hmd. cbn [find_task] in Hmd. rewrite Hidm in Hmd. cbn in Hmd.
      destruct (t_state xm) as [k s|w k|r] eqn:Es; [exfalso; exact (Snr xm k s Hxm Es)| |discriminate Hmd].
      pose proof (Hwk xm Hxm) as Hw. unfold wk_TP in Hw. rewrite Es in Hw. destruct k as [|f k']; [contradiction|]. apply wait_kind_cases in Hw.
      destruct (Hstk xm Hxm) as [_ Hs]. rewrite Es in Hs. destruct Hs as [_ [_ Hms]]. specialize (Hms Hidm). cbn [main_stack forallb] in Hms.
      apply andb_true_iff in Hms. destruct Hms as [Hmf _].
      destruct w as [[|n]|n|g]; [subst f; exists k'; reflexivity|destruct Hw as [Hw _]; congruence|subst f; discriminate Hmf|exfalso; exact (Sng xm g _ Hxm Es)]. }
    destruct Hmain as [km Esm].
    destruct (idle_in_run P Hsw Hhd Hbody Hnd Hsucc st xm km Hr Hready Hxm Hidm Esm) as (HE & HW & r & Hor & Hcase).
    destruct (allT_In _ _ _ xm HW Hxm) as (_ & W2 & _). cbn [estate ident fst snd] in W2. destruct (W2 Hidm _ Esm) as [Wall Wout].
    (* a node that has a task has finished *)
    assert (X : forall m, In m (node_names st) -> event_is_set m st = true).
    { intros m Hm. apply node_names_in in Hm. unfold names in Hm. apply in_map_iff in Hm. destruct Hm as [x [Hnm Hx]].
      pose proof (allT_In _ _ _ x HE Hx) as He. cbn [estate ident fst snd] in He.
      destruct (He m Hnm) as (_ & _ & E2 & _ & _ & _ & E4 & _).
      destruct (t_state x) as [k s|w k|r0] eqn:Es; [exfalso; exact (Snr x k s Hx Es)| |apply E4; eauto].
      exfalso. pose proof (Hwk x Hx) as Hw. unfold wk_TP in Hw. rewrite Es in Hw. destruct k as [|f k']; [contradiction|]. apply wait_kind_cases in Hw.
      pose proof (Hown x Hx) as Ho. unfold owner_TP in Ho. rewrite Es, Hnm in Ho. cbn [forallb] in Ho. apply andb_true_iff in Ho. destruct Ho as [Hof _].
      cbn [estack existsb] in E2. apply orb_false_iff in E2. destruct E2 as [E2 _].
      destruct w as [[|n]|n|g]; [subst f; discriminate Hof|destruct Hw as [_ Hw]; cbn [owner] in Hof; rewrite Hw in Hof; discriminate Hof|subst f; discriminate E2|exact (Sng x g _ Hx Es)]. }
    destruct Hcase as [->|(n & r' & p & -> & Hp & Hfp)].
    - (* every node is launched, the output node among them: it has finished, so manager.run would not wait *)
      rewrite app_nil_r in Hor. rewrite Hor in Hout. rewrite (X out Hout) in Wout. discriminate Wout.
    - (* the launcher waits for a dependency that is launched before it, so has finished, and with a result *)
      pose proof (X p (Htopo n p _ _ Hor Hp)) as Hep. unfold fin in Hfp. rewrite Hep, (Wall p Hep) in Hfp. discriminate Hfp.
  Qed.
End NoDeadlock.

(* a decidable form of the hypotheses on the two library orders, for concrete programs *)
Fixpoint nodupb (l : list key) : bool := match l with [] => true | x :: r => negb (mem key_eqb x r) && nodupb r end.
Lemma nodupb_sound l : nodupb l = true -> NoDup l.
Proof.
  induction l as [|x r IH]; intros H; [constructor|]. cbn in H. apply andb_true_iff in H. destruct H as [H1 H2]. constructor; [|apply IH; exact H2].
  intros Hin. apply (mem_true_iff key_eqb key_eqb_spec) in Hin. rewrite Hin in H1. discriminate H1.
Qed.

Fixpoint preds_before (g : graph) (seen l : list key) : bool :=
  match l with
  | [] => true
  | n :: r => forallb (fun p => mem key_eqb p seen) (preds g n) && preds_before g (seen ++ [n]) r
  end.
Lemma preds_before_sound g l : forall seen, preds_before g seen l = true ->
  forall n p a b, l = a ++ n :: b -> In p (preds g n) -> In p (seen ++ a).
Proof.
  induction l as [|m r IH]; intros seen H n p a b E Hp; [destruct a; discriminate E|].
  cbn in H. apply andb_true_iff in H. destruct H as [H1 H2]. destruct a as [|a0 a'].
  - cbn in E. inversion E; subst. rewrite app_nil_r. rewrite forallb_forall in H1. apply (mem_true_iff key_eqb key_eqb_spec). apply H1. exact Hp.
  - cbn in E. inversion E; subst. pose proof (IH _ H2 n p a' b eq_refl Hp) as Hin. rewrite <- app_assoc in Hin. exact Hin.
Qed.

Definition succ_ok (P : prog) (g : graph) : bool :=
  forallb (fun e => negb (mem key_eqb (fst (fst e)) (preds g (snd (fst e)))) || mem key_eqb (snd (fst e)) (p_succ_order P (fst (fst e)))) (g_edges g).

Lemma preds_edge g n p : In p (preds g n) -> exists a, In ((p, n), a) (g_edges g).
Proof.
  unfold preds, preds_e. intros H. apply in_map_iff in H. destruct H as [[u a] [Hu H]]. cbn in Hu. subst u.
  apply in_flat_map in H. destruct H as [u [_ H]].
  destruct (alookup edge_eqb (u, n) (g_edges g)) as [a'|] eqn:E; [|contradiction]. destruct H as [H|[]]. inversion H; subst.
  exists a. clear H. induction (g_edges g) as [|[[u' k'] a2] r IH]; cbn in E; [discriminate|].
  destruct (edge_eqb (p, n) (u', k')) eqn:Ee.
  - inversion E; subst. unfold edge_eqb in Ee. cbn in Ee. apply andb_true_iff in Ee. destruct Ee as [E1 E2].
    apply key_eqb_spec in E1. apply key_eqb_spec in E2. subst. left. reflexivity.
  - right. apply IH. exact E.
Qed.

Lemma succ_ok_sound P g : succ_ok P g = true -> forall n p, In p (preds g n) -> In n (p_succ_order P p).
Proof.
  intros H n p Hp. destruct (preds_edge g n p Hp) as [a Ha]. unfold succ_ok in H. rewrite forallb_forall in H. specialize (H _ Ha). cbn in H.
  apply orb_true_iff in H. destruct H as [H|H].
  - apply negb_true_iff in H. apply (mem_true_iff key_eqb key_eqb_spec) in Hp. congruence.
  - apply (mem_true_iff key_eqb key_eqb_spec). exact H.
Qed.

Definition valid_orders (P : prog) : Prop :=
  let g := b_graph (build (p_decls P) (p_inp P) (p_out P)) in
  let order := p_order P (maind P) in
  NoDup order /\ In (b_output (build (p_decls P) (p_inp P) (p_out P))) order /\
  (forall n p a b, order = a ++ n :: b -> In p (preds g n) -> In p a) /\
  (forall n p, In p (preds g n) -> In n (p_succ_order P p)).

Definition valid_orders_b (P : prog) : bool :=
  let g := b_graph (build (p_decls P) (p_inp P) (p_out P)) in
  let order := p_order P (maind P) in
  nodupb order && mem key_eqb (b_output (build (p_decls P) (p_inp P) (p_out P))) order && preds_before g [] order && succ_ok P g.

Lemma valid_orders_b_sound P : valid_orders_b P = true -> valid_orders P.
Proof.
  unfold valid_orders_b, valid_orders. intros H. apply andb_true_iff in H. destruct H as [H H4]. apply andb_true_iff in H. destruct H as [H H3].
  apply andb_true_iff in H. destruct H as [H1 H2].
  split; [apply nodupb_sound; exact H1|]. split; [apply (mem_true_iff key_eqb key_eqb_spec); exact H2|].
  split; [intros n p a b E Hp; exact (preds_before_sound _ _ [] H3 n p a b E Hp)|apply succ_ok_sound; exact H4].
Qed.

Theorem plain_programs_never_deadlock P :
  plain_prog P -> valid_orders P -> forall st, reachable P st -> deadlocked st = false.
Proof.
  intros (Hg & Hb & _) (V1 & V2 & V3 & V4). destruct (graph_plain_sound _ Hg) as [Hsw Hhd].
  exact (plain_no_deadlock P Hsw Hhd Hb V1 V2 V3 V4).
Qed.
