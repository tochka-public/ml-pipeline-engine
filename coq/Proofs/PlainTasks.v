(* Plain programs, every schedule, while manager.run is pending: what the instances of allT_node_step (Proofs/PlainExec.v) share.
   What a step does to the stored results (step_store_results); a frame of another task does not store a node's result; and
   what is known of the node the launcher creates a task for (creates_node). *)
From MLPE Require Import Engine.Run Proofs.Evolve Proofs.PlainWorld Proofs.PlainLaunch Proofs.PlainLive Proofs.Micro Proofs.PlainBase Proofs.PlainCore Proofs.PlainInv Proofs.PlainRoles Proofs.PlainExec Proofs.AssocLemmas.

Lemma get_result_set_other p q v s : p <> q -> get_result p true (set_result q v s) = get_result p true s.
Proof.
  intros Hne. unfold get_result, get_result_opt, set_result. cbn.
  rewrite (alookup_aset_other key_eqb key_eqb_spec); [reflexivity|exact Hne].
Qed.
Lemma get_result_set_same q v s : get_result q true (set_result q v s) = v.
Proof. unfold get_result, get_result_opt, set_result. cbn. rewrite (alookup_aset_same key_eqb key_eqb_spec). reflexivity. Qed.

(* a result appears only where _run_node is resumed with the value of its node *)
Lemma step_store_new fr sg (st : mstate) p :
  s_res_hidden (st_store st) = [] -> exists_result p (step_store fr sg st) = true -> exists_result p (st_store st) = false ->
  exists d v, fr = FNodeAfterExec d p /\ sg = SVal v.
Proof.
  intros Hrh Hp Hn. unfold step_store in Hp. destruct fr; try congruence; destruct sg; try congruence.
  - rewrite (result_set _ _ _ _ Hrh), Hn, orb_false_r in Hp. apply key_eqb_spec in Hp. subst p. eauto.
  - destruct (exists_processed n (st_store st)); [congruence|]. rewrite result_set_processed in Hp. congruence.
Qed.

Lemma step_store_results fr sg (st : mstate) :
  s_res_hidden (st_store st) = [] ->
  (forall d n v, fr = FNodeAfterExec d n -> sg = SVal v -> exists_result n (st_store st) = false) ->
  (forall p, exists_result p (st_store st) = true ->
             exists_result p (step_store fr sg st) = true /\ get_result p true (step_store fr sg st) = get_result p true (st_store st)) /\
  (forall d n v, fr = FNodeAfterExec d n -> sg = SVal v ->
                 exists_result n (step_store fr sg st) = true /\ get_result n true (step_store fr sg st) = v) /\
  (forall p, exists_result p (step_store fr sg st) = true -> exists_result p (st_store st) = false ->
             exists d v, fr = FNodeAfterExec d p /\ sg = SVal v).
Proof.
  intros Hrh Hfresh. split; [|split].
  - intros p Hp. split; [apply step_store_res_mono; assumption|].
    unfold step_store. destruct fr; try reflexivity; destruct sg; try reflexivity.
    + apply get_result_set_other. intros ->. rewrite (Hfresh d n v eq_refl eq_refl) in Hp. discriminate Hp.
    + destruct (exists_processed n (st_store st)); reflexivity.
  - intros d n v -> ->. cbn [step_store]. rewrite get_result_set_same, (result_set _ _ _ _ Hrh), key_eqb_refl. auto.
  - intros p. apply step_store_new. exact Hrh.
Qed.

Lemma owner_fsave nm n v b k : owner nm (FSave n v b k) = true -> nm = TNNode n.
Proof. destruct nm; try discriminate. cbn. intros H. apply key_eqb_spec in H. subst. reflexivity. Qed.

Section NodeTasks.
  Variable P : prog.
  Notation G := (b_graph (build (p_decls P) (p_inp P) (p_out P))).
  Hypothesis Hsw : forall n, is_switch G n = false.
  Hypothesis Hhd : forall n, is_head G n = false.

  Lemma node_names_step t fr sg st m :
    plain_frame P fr = true -> clean_sig sg -> PS st -> In m (node_names st) -> In m (node_names (fst (step_frame P t fr sg st))).
  Proof.
    intros Kf Hs Hps Hm. unfold node_names. rewrite (plain_step_names P t fr sg st Kf Hs Hps), flat_map_app. apply in_or_app. left. exact Hm.
  Qed.

  Lemma other_node_result t fr sg st nm m :
    plain_frame P fr = true -> clean_sig sg -> PS st -> owner nm fr = true -> nm <> TNNode m ->
    exists_result m (st_store (fst (step_frame P t fr sg st))) = exists_result m (st_store st).
  Proof.
    intros Kf Hs Hps Onm Hne. destruct (plain_step_summary P t fr sg st Kf Hs Hps) as (-> & _). pose proof Hps as (_ & Hrh & _).
    apply (step_untouched nm fr sg st m Onm Hne Hrh).
  Qed.

  (* _run_node, resumed with the value of the node: after storing it, it calls the store and then runs its `finally` *)
  Lemma plain_step_stores t n v st :
    clean_sig (SVal v) ->
    snd (step_frame P t (FNodeAfterExec (maind P) n) (SVal v) st) = DCont [FSave n v false 0; FNodeAfterSave (maind P) n true] SGo.
  Proof. intros Hs. cbn [step_frame]. rewrite (clean_not_rec _ Hs), (clean_not_exn _ Hs). reflexivity. Qed.

  Notation order := (p_order P (maind P)).

  (* the nodes that have a task are nodes of the order: the launcher holds the rest of it *)
  Lemma roles_in_order st c m : globR st -> allT (PhiR P st) st c -> In m (node_names st) -> In m order.
  Proof.
    intros (_ & _ & G3) HA Hm.
    destruct (existsb is_run_name (names st)) eqn:E.
    - apply existsb_exists in E. destruct E as [nm [Hin Hn]]. destruct nm; try discriminate Hn.
      unfold names in Hin. apply in_map_iff in Hin. destruct Hin as [x [Hnm Hx]].
      destruct (allT_In _ _ _ x HA Hx) as (_ & _ & _ & D & _). cbn [ident fst snd] in D. destruct (D Hnm) as [r [_ Ho]].
      rewrite Ho. apply in_or_app. left. exact Hm.
    - assert (Hno : ~ In TNRun (names st)).
      { intros Hin. assert (existsb is_run_name (names st) = true) by (apply existsb_exists; exists TNRun; auto). congruence. }
      rewrite (G3 Hno) in Hm. contradiction.
  Qed.

  Hypothesis Hnd : NoDup order.

  (* the task a step creates for a node: the launcher starts the next node of the order, which is ready and has no task yet *)
  Lemma creates_node st t fr rest sg m :
    base P st (Some (t, fr :: rest, sg)) -> allT (PhiR P st) st (Some (t, fr :: rest, sg)) ->
    In (TNNode m) (creates P fr sg st) ->
    is_ready P (st_store st) (maind P) m = true /\ ~ In m (node_names st) /\ In m order.
  Proof.
    intros Hb HA Hnm.
    destruct (base_running P _ _ _ _ _ Hb) as (x0 & Hf0 & Hin0 & Hid0 & Kf & Kr & Hs & Of & Or & Hc).
    destruct (creates_shape P fr sg st _ Hnm) as [[Hx _]|[d [n [r [l0 [-> [Em ->]]]]]]]; [discriminate Hx|]. inversion Em; subst n.
    cbn [plain_frame] in Kf. apply is_main_eq in Kf. subst d.
    split; [cbn [creates] in Hnm; destruct (is_ready _ _ _ _); [reflexivity|contradiction]|].
    (* the launcher holds the part of the order that has no task yet *)
    destruct (allT_run _ _ _ _ _ _ x0 HA Hin0 Hid0) as (_ & _ & _ & X4 & _). cbn [ident fst snd] in X4.
    destruct (X4 (owner_dag_loop _ _ _ _ Of)) as [r0 [Hr0 Hor]].
    assert (r0 = m :: r) by (destruct rest; [cbn in Hr0; inversion Hr0; reflexivity|discriminate Hr0]). subst r0.
    split; [|rewrite Hor; apply in_or_app; right; left; reflexivity].
    intros Hin. pose proof Hnd as Hnd'. rewrite Hor in Hnd'. apply NoDup_remove_2 in Hnd'. apply Hnd'. apply in_or_app. left. exact Hin.
  Qed.
End NodeTasks.
