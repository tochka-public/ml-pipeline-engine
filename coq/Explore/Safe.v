(* Safety predicates decided on history-free states, the reference semantics they are compared with, and the one-line
   certificate [certify]: explore, re-check closure, check the predicate on every state of the set. *)
From MLPE Require Import Engine.Run Spec.Fragments Explore.StateEq Explore.Erase Explore.Explorer.

Definition aborted (st : mstate) : bool :=
  existsb (fun t => match t_state t with TDone (SThrow (XEng EOutOfFuel _)) => true | _ => false end) (st_tasks st).

Definition cause_matches (e : exn) (c : cause) : bool :=
  match e, c with
  | XNode cl i a, Dataflow.CNode cl' i' a' => exc_cls_eqb cl cl' && Nat.eqb i i' && Nat.eqb a a'
  | XEng EOneOfNoResult _, COneOf _ _ => true
  | XEng ERecNoResult _, CRec _ => true
  | XEng ESwitchNoBranch _, CSwitch _ _ => true
  | _, _ => false
  end.

Section Safe.
  Variable P : prog.

  Definition ref_eval : estate * res := eval_output (p_decls P) (p_body P) (p_input P) (p_inp P) (p_out P).
  Definition ref_res : res := snd ref_eval.
  Definition ref_log : list exec_rec := e_log (fst ref_eval).

  (* final failures of nodes in the reference evaluation *)
  Definition final_failure (e : exn) : bool :=
    existsb (fun x => match x_result x with RFail cs => existsb (cause_matches e) cs | ROk _ => false end) ref_log.

  (* C01 / C05: what PipelineChart.run may end with *)
  Definition outcome_ok (allow_cancel : bool) (r : signal) : bool :=
    match r with
    | SVal v => match ref_res with ROk v' => value_seqb v v' | RFail _ => false end
    | SResErr e => match ref_res with
                   | RFail cs => existsb (cause_matches e) cs && is_Exception e
                   | ROk _ => false
                   end
    | SThrow XCancelled => allow_cancel
    | SThrow e => match ref_res with
                  | RFail cs => existsb (cause_matches e) cs && negb (is_Exception e)     (* a propagated BaseException *)
                  | ROk _ => false
                  end
    | _ => false
    end.

  Definition safe_outcome (allow_cancel : bool) (st : mstate) : bool :=
    match main_state st with
    | Some (TDone r) => outcome_ok allow_cancel r
    | _ => true
    end.

  Definition safe_live (st : mstate) : bool := negb (deadlocked st) && negb (aborted st).

  (* C04 / C09 / C10 / C11: no body is invoked more often than the reference evaluation invokes it *)
  Definition ref_invocations (i : nat) : nat :=
    fold_left (fun acc x => if Nat.eqb (x_node x) i then acc + x_attempts x else acc) ref_log 0.
  Definition safe_counts (st : mstate) : bool :=
    forallb (fun ck => match fst ck with
                       | CBody i => Nat.leb (snd ck) (ref_invocations i)
                       | _ => true
                       end) (st_ctrs st).

  (* C03: every body invocation in flight or about to happen carries keyword arguments the reference passes to that node *)
  Definition ref_kwargs_ok (i : nat) (kw : kwargs) : bool :=
    existsb (fun x => Nat.eqb (x_node x) i && list_eqb (prod_eqb Nat.eqb value_seqb) kw (x_kw x)) ref_log.
  Definition frame_kwargs_ok (f : frame) : bool :=
    match f with
    | FRetry i _ kw _ | FRetryAfterBody i kw _ | FRetryAfterEmit i kw _ | FRetryAfterSleep i kw _ => ref_kwargs_ok i kw
    | _ => true
    end.
  Definition safe_kwargs (st : mstate) : bool :=
    forallb (fun t => match t_state t with
                      | TReady k _ | TWait _ k => forallb frame_kwargs_ok k
                      | TDone _ => true
                      end) (st_tasks st).

  (* C19: no artifact is saved twice, and what is being saved is a value, not a marker or a failure *)
  Definition safe_saves (st : mstate) : bool :=
    forallb (fun ck => match fst ck with CSave _ => Nat.leb (snd ck) 1 | _ => true end) (st_ctrs st)
    && forallb (fun t => match t_state t with
                         | TReady k _ | TWait _ k => forallb (fun f => match f with FSave _ v _ _ => negb (is_rec v || is_exn v) | _ => true end) k
                         | TDone _ => true
                         end) (st_tasks st).

  Definition safe_all (allow_cancel : bool) (st : mstate) : bool :=
    safe_live st && safe_outcome allow_cancel st && safe_counts st && safe_kwargs st.

  (* C17: a needed pool is missing: the run ends with the pool error (or the caller's cancellation) and no body is ever invoked *)
  Definition safe_nopool (st : mstate) : bool :=
    safe_live st
    && match main_state st with
       | Some (TDone (SResErr (XEng EPoolNotReady _))) | Some (TDone (SThrow XCancelled)) => true
       | Some (TDone _) => false
       | _ => true
       end
    && forallb (fun ck => match fst ck with CBody _ | CSave _ | CSleep _ => false | CEmit _ _ _ => true end) (st_ctrs st).

  (* C14 on counters (non-raising managers): pipeline_start is the first callback of manager 0 and happens once; pipeline_complete
     happens at most once per manager, and once it has happened every helper task is finished or cancelled (so nothing but the
     remaining pipeline_complete callbacks can follow, by C13); a node gets at most one on_node_start per execution and at
     most one on_node_complete per attempt of the reference (plus one for a forced default) *)
  (* executions of node i in the reference: ordinary ones and the forced get_default after the iterations of a recurrent
     subgraph are exhausted (an execution without body invocation: it still reports on_node_start / on_node_complete) *)
  Definition ref_executions (i : nat) : nat := length (filter (fun x => Nat.eqb (x_node x) i) ref_log).
  Definition ref_forced_defaults (i : nat) : nat :=
    length (filter (fun x => Nat.eqb (x_node x) i && Nat.eqb (x_attempts x) 0) ref_log).
  Definition helpers_over (st : mstate) : bool :=
    forallb (fun t => negb (t_helper t) || match t_state t with TDone _ | TReady _ (SThrow XCancelled) => true | _ => false end) (st_tasks st).
  Definition safe_events (st : mstate) : bool :=
    forallb (fun ck => match fst ck with
                       | CEmit m EvPipelineStart None => Nat.leb (snd ck) 1
                       | CEmit m EvPipelineComplete None => Nat.leb (snd ck) 1 && helpers_over st
                       | CEmit m EvNodeStart (Some (KN i)) => Nat.leb (snd ck) (ref_executions i)
                       | CEmit m EvNodeComplete (Some (KN i)) => Nat.leb (snd ck) (ref_invocations i + ref_forced_defaults i)
                       | CEmit _ _ _ => false
                       | _ => true
                       end) (st_ctrs st)
    && (Nat.eqb (p_mgrs P) 0
        || match st_ctrs st with [] => true | _ => Nat.eqb (ctr_get (CEmit 0 EvPipelineStart None) st) 1 end).

  (* C06 (plain DAGs): at a quiescent point of a run that is still undecided, every node whose depth does not exceed the
     smallest depth of a node without a result has been started (marked processed): the launcher never waits for a sibling *)
  Definition G_ := b_graph (build (p_decls P) (p_inp P) (p_out P)).
  Fixpoint node_depth (fuel : nat) (n : key) : nat :=
    match fuel with
    | O => 0
    | S f => match preds G_ n with
             | [] => 0
             | ps => S (fold_left Nat.max (map (node_depth f) ps) 0)
             end
    end.
  Definition depth_of (n : key) : nat := node_depth (length (g_nodes G_)) n.
  Definition safe_c06 (st : mstate) : bool :=
    match st_ready st, main_state st, task_errors st with
    | [], Some (TWait (WCond CRun) _), [] =>
      (* completed = result stored AND the node task went through its `finally` (artifact saved, successors notified) *)
      let pending := filter (fun n => negb (exists_result n (st_store st) && event_is_set n st)) (node_keys G_) in
      match pending with
      | [] => true
      | n0 :: r =>
        let dmin := fold_left Nat.min (map depth_of r) (depth_of n0) in
        forallb (fun n => Nat.ltb dmin (depth_of n) || exists_processed n (st_store st)) (node_keys G_)
      end
    | _, _, _ => true
    end.

  Definition erased_all (R : list mstate) : bool := forallb (fun s => match st_trace s with [] => true | _ => false end) R.

  (* no chain of loop steps without an external completion is longer than n *)
  Definition safe_quiesce (n : nat) (st : mstate) : bool :=
    match st_ready (quiesce P n st) with [] => true | _ => false end.

  Definition quiesce_bound : nat := 300.
  (* everything at once (programs without collaborator faults) / liveness only (with collaborator faults) *)
  Definition safe_full (allow_cancel : bool) (st : mstate) : bool :=
    safe_all allow_cancel st && safe_saves st && safe_quiesce quiesce_bound st && safe_events st
    && (negb (frag_Plain (p_decls P)) || safe_c06 st).
  Definition safe_term (st : mstate) : bool := safe_live st && safe_quiesce quiesce_bound st.

  Definition certify (wc : bool) (fuel : nat) (safe : mstate -> bool) : bool :=
    match explore_all P wc fuel with
    | Some R => memb (erase (init_state)) R && closed P wc R && erased_all R && forallb safe R
    | None => false
    end.

  Theorem certify_sound wc fuel safe :
    certify wc fuel safe = true -> forall st, reachable_by P wc st -> safe (erase st) = true.
  Proof.
    unfold certify. destruct (explore_all P wc fuel) as [R|]; [|discriminate]. intros H st Hr.
    apply andb_true_iff in H. destruct H as [H H4]. apply andb_true_iff in H. destruct H as [H H3].
    apply andb_true_iff in H. destruct H as [H1 H2].
    exact (explored_safe P wc R H1 H2 H3 safe H4 st Hr).
  Qed.

  Definition explored_states (wc : bool) (fuel : nat) : nat := match explore_all P wc fuel with Some R => length R | None => 0 end.

  Lemma safe_quiesce_erase n st : safe_quiesce n (erase st) = safe_quiesce n st.
  Proof.
    unfold safe_quiesce. pose proof (quiesce_eqe P n (erase st) st (eqe_erase st)) as H.
    destruct (eqe_fields _ _ H) as (_ & _ & _ & HR & _). rewrite HR. reflexivity.
  Qed.

  (* the predicates do not look at the trace *)
  Lemma safe_live_erase st : safe_live (erase st) = safe_live st. Proof. reflexivity. Qed.
  Lemma safe_outcome_erase c st : safe_outcome c (erase st) = safe_outcome c st. Proof. reflexivity. Qed.
  Lemma safe_counts_erase st : safe_counts (erase st) = safe_counts st. Proof. reflexivity. Qed.
  Lemma safe_kwargs_erase st : safe_kwargs (erase st) = safe_kwargs st. Proof. reflexivity. Qed.
  Lemma safe_saves_erase st : safe_saves (erase st) = safe_saves st. Proof. reflexivity. Qed.
  Lemma safe_all_erase c st : safe_all c (erase st) = safe_all c st. Proof. reflexivity. Qed.
End Safe.
