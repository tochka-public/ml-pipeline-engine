(* Certified exhaustive exploration: for ONE concrete program, a finite set of history-free states that contains the
   initial state and is closed under every transition contains (the erasure of) every reachable state -- for schedules
   of any length, no depth bound. [explore] computes such a set and [closed] re-checks it, by evaluation inside Coq;
   Explore/Certify.v shows that both succeed without running them. *)
From MLPE Require Import Engine.Run Explore.StateEq Explore.Erase.

Lemma gate_eqb_sound : sound gate_eqb.
Proof.
  intros a b. destruct a; destruct b; cbn [gate_eqb]; try discriminate; intros H; split_and H.
  - apply Nat.eqb_eq in H, H0. subst. reflexivity.
  - apply Nat.eqb_eq in H, H0. subst. reflexivity.
  - apply Nat.eqb_eq in H0, H1. subst. f_equal.
    + destruct ev; destruct ev0; try discriminate; reflexivity.
    + destruct n as [x|]; destruct n0 as [y|]; cbn in H2; try discriminate; [f_equal; apply key_eqb_spec; exact H2|reflexivity].
  - apply Nat.eqb_eq in H0. apply key_eqb_spec in H. subst. reflexivity.
Qed.

Section Explore.
  Variable P : prog.
  Variable wc : bool.       (* explore cancellation by the caller too? *)

  Definition enabled (s : mstate) : list action := AStep :: (if wc then [ACancel] else []) ++ map AGate (pending_gates s).
  Definition memb (s : mstate) (R : list mstate) : bool := existsb (state_seqb s) R.

  Lemma memb_In s R : memb s R = true -> In s R.
  Proof. unfold memb. intros H. apply existsb_exists in H. destruct H as [s' [Hin He]]. apply state_seqb_sound in He. subst. exact Hin. Qed.

  Definition closed (R : list mstate) : bool :=
    forallb (fun s => forallb (fun a => memb (astep P a s) R) (enabled s)) R.

  Lemma erased_fix s : st_trace s = [] -> erase s = s.
  Proof. destruct s. cbn. intros ->. reflexivity. Qed.

  Lemma filter_none {A} (f : A -> bool) l : existsb f l = false -> filter f l = [] /\ filter (fun x => negb (f x)) l = l.
  Proof.
    induction l as [|x r IH]; cbn; [auto|]. intros H. apply orb_false_iff in H. destruct H as [H1 H2]. rewrite H1. cbn.
    destruct (IH H2) as [A1 A2]. rewrite A2. auto.
  Qed.

  Lemma wake_all_no_waiter w sg (s : mstate) :
    existsb (fun p : wait * tid => wait_eqb (fst p) w) (st_waiters s) = false -> erase (wake_all w sg s) = erase s.
  Proof.
    intros H. unfold wake_all. destruct (filter_none _ _ H) as [Hhit Hrest]. rewrite Hhit, Hrest. cbn [fold_left]. destruct s. reflexivity.
  Qed.

  Lemma pending_gate_in g (s : mstate) :
    existsb (fun p : wait * tid => wait_eqb (fst p) (WGate g)) (st_waiters s) = true -> In g (pending_gates s).
  Proof.
    intros H. apply existsb_exists in H. destruct H as [[w t] [Hin Hw]]. cbn in Hw. destruct w as [c|n|g']; try discriminate.
    cbn in Hw. apply gate_eqb_sound in Hw. subst g'. unfold pending_gates. apply in_flat_map. exists (WGate g, t). split; [exact Hin|left; reflexivity].
  Qed.

  Section Sound.
    Variable R : list mstate.
    Hypothesis Hinit : memb (erase (init_state)) R = true.
    Hypothesis Hclosed : closed R = true.
    Hypothesis Herased : forallb (fun s => match st_trace s with [] => true | _ => false end) R = true.

    Lemma R_erased s : In s R -> erase s = s.
    Proof. intros H. rewrite forallb_forall in Herased. specialize (Herased s H). apply erased_fix. destruct (st_trace s); [reflexivity|discriminate]. Qed.

    Lemma R_enabled s a : In s R -> In a (enabled s) -> In (astep P a s) R.
    Proof.
      intros Hs Ha. unfold closed in Hclosed. rewrite forallb_forall in Hclosed. specialize (Hclosed s Hs).
      rewrite forallb_forall in Hclosed. apply memb_In. apply Hclosed. exact Ha.
    Qed.

    Lemma R_quiesce fuel s : In s R -> In (erase (quiesce P fuel s)) R.
    Proof.
      revert s. induction fuel as [|f IH]; intros s Hs; cbn [quiesce]; [rewrite (R_erased s Hs); exact Hs|].
      destruct (st_ready s) eqn:E; [rewrite (R_erased s Hs); exact Hs|].
      assert (Hn : In (astep P AStep s) R) by (apply R_enabled; [exact Hs|left; reflexivity]).
      specialize (IH _ Hn). unfold astep in IH at 1. cbn [apply_action] in IH.
      replace (erase (quiesce P f (loop_step P s))) with (erase (quiesce P f (erase (loop_step P s)))); [exact IH|].
      apply (quiesce_eqe P f (erase (loop_step P s)) (loop_step P s)). apply eqe_erase.
    Qed.

    Lemma R_step s a : In s R -> act_ok wc a = true -> In (astep P a s) R.
    Proof.
      intros Hs Hok. destruct a as [| |g|].
      - apply R_enabled; [exact Hs|left; reflexivity].
      - unfold astep. cbn [apply_action]. apply R_quiesce. exact Hs.
      - destruct (existsb (fun p : wait * tid => wait_eqb (fst p) (WGate g)) (st_waiters s)) eqn:E.
        + apply R_enabled; [exact Hs|]. right. apply in_or_app. right. apply in_map. apply pending_gate_in. exact E.
        + unfold astep. cbn [apply_action]. unfold complete_gate. rewrite (wake_all_no_waiter _ _ _ E), (R_erased s Hs). exact Hs.
      - cbn in Hok. apply R_enabled; [exact Hs|]. unfold enabled. rewrite Hok. right. left. reflexivity.
    Qed.

    Theorem closed_sound s : reachable_e P wc s -> In s R.
    Proof. intros H. induction H as [|s a H IH Hok]; [apply memb_In; exact Hinit|apply R_step; assumption]. Qed.

    Corollary explored_safe (safe : mstate -> bool) :
      forallb safe R = true -> forall st, reachable_by P wc st -> safe (erase st) = true.
    Proof.
      intros Hs st Hr. rewrite forallb_forall in Hs. apply Hs. apply closed_sound. apply reachable_erase. exact Hr.
    Qed.
  End Sound.

  (* worklist exploration (depth first); None = out of fuel *)
  Fixpoint explore (fuel : nat) (todo seen : list mstate) : option (list mstate) :=
    match fuel with
    | O => None
    | S f =>
      match todo with
      | [] => Some seen
      | s :: rest => if memb s seen then explore f rest seen
                     else explore f (map (fun a => astep P a s) (enabled s) ++ rest) (s :: seen)
      end
    end.

  Definition explore_all (fuel : nat) : option (list mstate) := explore fuel [erase (init_state)] [].
End Explore.
