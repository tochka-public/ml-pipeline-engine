(* The trace is write-only: erasing it commutes with every transition. Exploration can therefore be done on states
   without history (finitely many), and what it establishes about them holds for the real states. *)
From MLPE Require Import Engine.Run Proofs.ExecLemmas.

Definition erase (st : mstate) : mstate :=
  {| st_store := st_store st; st_adddata := st_adddata st; st_tasks := st_tasks st; st_ready := st_ready st;
     st_waiters := st_waiters st; st_events := st_events st; st_trace := []; st_ctrs := st_ctrs st; st_next := st_next st |}.

Lemma erase_idem st : erase (erase st) = erase st. Proof. reflexivity. Qed.

Definition eqe (a b : mstate) : Prop := erase a = erase b.

Lemma eqe_fields a b :
  eqe a b -> st_store a = st_store b /\ st_adddata a = st_adddata b /\ st_tasks a = st_tasks b /\ st_ready a = st_ready b
             /\ st_waiters a = st_waiters b /\ st_events a = st_events b /\ st_ctrs a = st_ctrs b /\ st_next a = st_next b.
Proof. unfold eqe, erase. intros H. inversion H. auto 10. Qed.

Lemma eqe_intro a b :
  st_store a = st_store b -> st_adddata a = st_adddata b -> st_tasks a = st_tasks b -> st_ready a = st_ready b ->
  st_waiters a = st_waiters b -> st_events a = st_events b -> st_ctrs a = st_ctrs b -> st_next a = st_next b -> eqe a b.
Proof. unfold eqe, erase. intros -> -> -> -> -> -> -> ->. reflexivity. Qed.

Lemma eqe_refl a : eqe a a. Proof. reflexivity. Qed.
Lemma eqe_erase a : eqe (erase a) a. Proof. reflexivity. Qed.

(* an operation that does not look at the trace: on the erased state it does the same, up to the trace *)
Lemma eqe_lift (f : mstate -> mstate) : (forall a, eqe (f a) (f (erase a))) -> forall a b, eqe a b -> eqe (f a) (f b).
Proof. intros Hf a b H. unfold eqe in *. rewrite (Hf a), (Hf b), H. reflexivity. Qed.

Lemma eqe_emit_obs_l o a b : eqe a b -> eqe (emit_obs o a) b. Proof. intros H. exact H. Qed.
Lemma eqe_emit_obs_r o a b : eqe a b -> eqe a (emit_obs o b). Proof. intros H. exact H. Qed.
Lemma eqe_with_store f a b : eqe a b -> eqe (with_store f a) (with_store f b). Proof. apply (eqe_lift (with_store f)). reflexivity. Qed.
Lemma eqe_bump c a b : eqe a b -> eqe (bump c a) (bump c b). Proof. apply (eqe_lift (bump c)). reflexivity. Qed.
Lemma eqe_set_adddata k v a b : eqe a b -> eqe (set_adddata k v a) (set_adddata k v b). Proof. apply (eqe_lift (set_adddata k v)). reflexivity. Qed.
Lemma eqe_push_ready t a b : eqe a b -> eqe (push_ready t a) (push_ready t b). Proof. apply (eqe_lift (push_ready t)). reflexivity. Qed.
Lemma eqe_set_waiters w a b : eqe a b -> eqe (set_waiters w a) (set_waiters w b). Proof. apply (eqe_lift (set_waiters w)). reflexivity. Qed.
Lemma eqe_set_tstate t ts a b : eqe a b -> eqe (set_tstate t ts a) (set_tstate t ts b). Proof. apply (eqe_lift (set_tstate t ts)). reflexivity. Qed.
Lemma eqe_add_event n a b : eqe a b -> eqe (add_event n a) (add_event n b). Proof. apply (eqe_lift (add_event n)). reflexivity. Qed.
Lemma eqe_dequeue a b : eqe a b -> eqe (dequeue a) (dequeue b). Proof. apply (eqe_lift dequeue). reflexivity. Qed.
Lemma eqe_spawn nm h k a b : eqe a b -> eqe (fst (spawn nm h k a)) (fst (spawn nm h k b)) /\ snd (spawn nm h k a) = snd (spawn nm h k b).
Proof.
  intros H. split; [revert a b H; apply (eqe_lift (fun s => fst (spawn nm h k s))); reflexivity|].
  apply (f_equal st_next H).
Qed.

Lemma eqe_fold {A} (f : mstate -> A -> mstate) (l : list A) :
  (forall x a b, eqe a b -> eqe (f a x) (f b x)) -> forall a b, eqe a b -> eqe (fold_left f l a) (fold_left f l b).
Proof. intros Hf. induction l as [|x r IH]; intros a b H; cbn [fold_left]; [exact H|]. apply IH, Hf, H. Qed.

Lemma eqe_wake t sg a b : eqe a b -> eqe (wake t sg a) (wake t sg b).
Proof.
  apply (eqe_lift (wake t sg)). intros a'. unfold wake. cbn [erase st_tasks].
  destruct (find_task t (st_tasks a')) as [[i nm [k s|w k|r] h]|]; reflexivity.
Qed.

Lemma eqe_wake_all w sg a b : eqe a b -> eqe (wake_all w sg a) (wake_all w sg b).
Proof.
  apply (eqe_lift (wake_all w sg)). intros a'. unfold wake_all. cbn [erase st_waiters].
  apply eqe_fold; [intros p; apply eqe_wake|reflexivity].
Qed.

Lemma eqe_notify c a b : eqe a b -> eqe (notify c a) (notify c b). Proof. apply eqe_wake_all. Qed.
Lemma eqe_notify_keys ks a b : eqe a b -> eqe (notify_keys ks a) (notify_keys ks b).
Proof. apply eqe_fold. intros k. apply eqe_notify. Qed.
Lemma eqe_set_event n a b : eqe a b -> eqe (set_event n a) (set_event n b).
Proof.
  intros H. change (set_event n a) with (wake_all (WEvent n) SGo (add_event n a)).
  change (set_event n b) with (wake_all (WEvent n) SGo (add_event n b)). apply eqe_wake_all, eqe_add_event, H.
Qed.
Lemma eqe_cancel_task t a b : eqe a b -> eqe (cancel_task t a) (cancel_task t b).
Proof.
  apply (eqe_lift (cancel_task t)). intros a'. unfold cancel_task. cbn [erase st_tasks].
  destruct (find_task t (st_tasks a')) as [[i nm [k s|w k|r] h]|]; reflexivity.
Qed.
Lemma eqe_cancel_tasks ts a b : eqe a b -> eqe (cancel_tasks ts a) (cancel_tasks ts b).
Proof. apply eqe_fold. intros t. apply eqe_cancel_task. Qed.
Lemma eqe_finally_a n a b : eqe a b -> eqe (finally_a n a) (finally_a n b).
Proof. intros H. unfold finally_a. apply eqe_notify, eqe_set_event, H. Qed.
Lemma eqe_finally_b P d n a b : eqe a b -> eqe (finally_b P d n a) (finally_b P d n b).
Proof.
  intros H. unfold finally_b. destruct (key_eqb n (d_dst d)).
  - apply eqe_notify, eqe_notify, eqe_notify_keys, eqe_set_event, H.
  - apply eqe_notify, eqe_notify_keys, eqe_set_event, H.
Qed.
Lemma eqe_fold_hide (l : list key) a b :
  eqe a b -> eqe (fold_left (fun s k => emit_obs (OHide k) s) l a) (fold_left (fun s k => emit_obs (OHide k) s) l b).
Proof. apply eqe_fold. intros k a' b' H. apply eqe_emit_obs_l, eqe_emit_obs_r, H. Qed.
Lemma eqe_suspend t w k a b : eqe a b -> eqe (suspend t w k a) (suspend t w k b).
Proof. apply (eqe_lift (suspend t w k)). reflexivity. Qed.
Lemma eqe_abort P a b : eqe a b -> eqe (abort P a) (abort P b).
Proof. apply (eqe_lift (abort P)). reflexivity. Qed.

Ltac eqe_prims :=
  repeat first
         [ assumption
         | apply eqe_notify | apply eqe_notify_keys | apply eqe_set_event | apply eqe_cancel_tasks | apply eqe_cancel_task
         | apply eqe_finally_a | apply eqe_finally_b | apply eqe_fold_hide | apply eqe_wake_all
         | apply eqe_with_store | apply eqe_bump | apply eqe_set_adddata | apply eqe_push_ready
         | (apply eqe_emit_obs_l; apply eqe_emit_obs_r) ].

Section Erase.
  Variable P : prog.

  Lemma eqe_observers a b :
    eqe a b ->
    run_pred P a = run_pred P b /\ task_errors a = task_errors b /\ helper_tids a = helper_tids b
    /\ (forall n, node_kwargs P a n = node_kwargs P b n) /\ (forall n, event_is_set n a = event_is_set n b)
    /\ (forall c, ctr_get c a = ctr_get c b).
  Proof.
    intros H. destruct (eqe_fields _ _ H) as (HS & HA & HT & HR & HW & HE & HC & HN).
    unfold run_pred, task_errors, helper_tids, node_kwargs, event_is_set, ctr_get. rewrite HS, HA, HT, HE, HC. auto 10.
  Qed.

  Lemma step_frame_eqe t fr sg a b :
    eqe a b ->
    eqe (fst (step_frame P t fr sg a)) (fst (step_frame P t fr sg b))
    /\ snd (step_frame P t fr sg a) = snd (step_frame P t fr sg b).
  Proof.
    intros H. destruct (eqe_observers a b H) as (Hrun & Hte & Hht & Hkw & Hev & Hctr).
    destruct (eqe_fields _ _ H) as (HS & HA & HT & HR & HW & HE & HC & HN).
    destruct fr; destruct sg; cbn [step_frame]; unfold default_or_raise, reduced;
      rewrite ?Hrun, ?Hte, ?Hht, ?Hkw, ?Hev, ?Hctr, ?HS;
      repeat first
             [ match goal with
               | |- context [spawn ?nm ?h ?k a] =>
                 lazymatch k with
                 | context [match _ with _ => _ end] => fail
                 | _ =>
                   let Hs := fresh "Hs" in
                   let Ht := fresh "Ht" in
                   destruct (eqe_spawn nm h k a b H) as [Hs Ht];
                   destruct (spawn nm h k a) as [? ?]; destruct (spawn nm h k b) as [? ?]; cbn [fst snd] in Hs, Ht; subst
                 end
               end
             | break_match ];
      cbn [fst snd]; unfold helper_tids; cbn [emit_obs st_tasks]; rewrite ?HT; (split; [eqe_prims|reflexivity]).
  Qed.
End Erase.

Section EraseRun.
  Variable P : prog.

  Lemma exec_eqe fuel t k sg a b : eqe a b -> eqe (exec P fuel t k sg a) (exec P fuel t k sg b).
  Proof.
    revert k sg a b. induction fuel as [|f IH]; intros k sg a b H; destruct k as [|fr rest]; cbn [exec].
    - apply eqe_set_tstate, H.
    - apply eqe_abort, H.
    - apply eqe_set_tstate, H.
    - destruct (step_frame_eqe P t fr sg a b H) as [H1 H2].
      destruct (step_frame P t fr sg a) as [a1 da]. destruct (step_frame P t fr sg b) as [b1 db]. cbn [fst snd] in *. subst db.
      destruct da as [w k'|k'|k' sg'|sg'].
      + apply eqe_suspend, H1.
      + apply eqe_push_ready, eqe_set_tstate, H1.
      + apply IH, H1.
      + apply IH, H1.
  Qed.

  Lemma loop_step_eqe a b : eqe a b -> eqe (loop_step P a) (loop_step P b).
  Proof.
    intros H. rewrite !loop_step_unfold. destruct (eqe_fields _ _ H) as (_ & _ & HT & HR & _). rewrite HR, HT.
    destruct (st_ready b) as [|t rest]; [exact H|]. destruct (find_task t (st_tasks b)) as [x|]; [|apply eqe_dequeue, H].
    destruct (t_state x) as [k sg|w k|r]; [apply exec_eqe, eqe_dequeue, H|apply eqe_dequeue, H|apply eqe_dequeue, H].
  Qed.

  Lemma quiesce_eqe fuel a b : eqe a b -> eqe (quiesce P fuel a) (quiesce P fuel b).
  Proof.
    revert a b. induction fuel as [|f IH]; intros a b H; cbn [quiesce]; [exact H|].
    destruct (eqe_fields _ _ H) as (_ & _ & _ & HR & _). rewrite HR. destruct (st_ready b); [exact H|]. apply IH, loop_step_eqe, H.
  Qed.

  Lemma apply_action_eqe act a b : eqe a b -> eqe (apply_action P act a) (apply_action P act b).
  Proof.
    intros H. destruct act as [| |g|]; cbn [apply_action].
    - apply loop_step_eqe, H.
    - apply quiesce_eqe, H.
    - unfold complete_gate. apply eqe_wake_all, H.
    - apply eqe_cancel_task, H.
  Qed.

  Definition astep (act : action) (s : mstate) : mstate := erase (apply_action P act s).

  (* schedules with (wc = true) or without (wc = false) a cancellation by the caller *)
  Definition act_ok (wc : bool) (act : action) : bool := match act with ACancel => wc | _ => true end.

  Inductive reachable_by (wc : bool) : mstate -> Prop :=
  | rb_init : reachable_by wc (init_state)
  | rb_step st act : reachable_by wc st -> act_ok wc act = true -> reachable_by wc (apply_action P act st).

  Lemma reachable_by_reachable wc st : reachable_by wc st -> reachable P st.
  Proof. intros H. induction H; [constructor|constructor; assumption]. Qed.
  Lemma reachable_by_true st : reachable P st -> reachable_by true st.
  Proof. intros H. induction H; [constructor|constructor; [assumption|destruct a; reflexivity]]. Qed.

  Lemma run_sched_reachable_by wc sched :
    forallb (act_ok wc) sched = true -> reachable_by wc (run_sched P sched).
  Proof.
    unfold run_sched. generalize (rb_init wc). generalize (init_state).
    induction sched as [|a r IH]; cbn [fold_left forallb]; intros s Hs H; [exact Hs|].
    apply andb_true_iff in H. destruct H as [Ha Hr]. apply IH; [constructor; assumption|exact Hr].
  Qed.

  Inductive reachable_e (wc : bool) : mstate -> Prop :=
  | re_init : reachable_e wc (erase (init_state))
  | re_step s act : reachable_e wc s -> act_ok wc act = true -> reachable_e wc (astep act s).

  Theorem reachable_erase wc st : reachable_by wc st -> reachable_e wc (erase st).
  Proof.
    intros H. induction H as [|st act H IH Hok]; [constructor|].
    replace (erase (apply_action P act st)) with (astep act (erase st)); [constructor; assumption|].
    unfold astep. apply (apply_action_eqe act (erase st) st). apply eqe_erase.
  Qed.
End EraseRun.
