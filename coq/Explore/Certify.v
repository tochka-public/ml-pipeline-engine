(* [certify P wc fuel safe = true] without running [explore].
   - Whatever [explore] returns is closed, erased and contains the initial state ([explore_all_closed]): the re-check inside
     [certify] can only succeed.
   - If a closed set R' of erased states contains the initial state, [explore] finishes within a fuel linear in the size of
     R' and returns a subset of it ([explore_within]).
   So it is enough to exhibit such an R' on which the predicate holds.  [certify_fast] computes one by the same worklist
   exploration over a map from a key of the state to the states with that key ([explore_table_spec]: closed by
   construction) and evaluates the predicate on it.  Each state is stored with a number that decreases along loop steps,
   which bounds the chains of loop steps ([safe_quiesce]) without running them from every state.  Evaluated by the kernel,
   [certify] itself spends most of its work comparing states against a list, stepping again for the closure check, and
   recomputing at every state what depends on the program alone; none of that is done here. *)
From MLPE Require Import Engine.Run Spec.Fragments Proofs.ExecLemmas Explore.StateEq Explore.Erase Explore.Explorer Explore.Safe.
Require Import FMapPositive Lia.

Section Certify.
  Variable P : prog.
  Variable wc : bool.

  Definition erased (s : mstate) : bool := match st_trace s with [] => true | _ => false end.
  Definition succs (s : mstate) : list mstate := map (fun a => astep P a s) (enabled wc s).
  Definition stable (R : list mstate) : Prop := forall s, In s R -> incl (succs s) R.

  Lemma succs_erased s s' : In s' (succs s) -> erased s' = true.
  Proof. intros H. apply in_map_iff in H. destruct H as [a [<- _]]. reflexivity. Qed.

  Lemma In_memb s R : erased s = true -> In s R -> memb s R = true.
  Proof.
    intros He Hin. apply existsb_exists. exists s. split; [exact Hin|]. apply state_seqb_refl.
    unfold erased in He. destruct (st_trace s); [reflexivity|discriminate].
  Qed.

  Lemma explore_stable fuel : forall todo seen R,
    explore P wc fuel todo seen = Some R ->
    (forall s, In s todo \/ In s seen -> erased s = true) ->
    (forall s, In s seen -> forall s', In s' (succs s) -> In s' seen \/ In s' todo) ->
    incl seen R /\ incl todo R /\ stable R /\ (forall s, In s R -> erased s = true).
  Proof.
    induction fuel as [|f IH]; intros todo seen R E He Hinv; cbn [explore] in E; [discriminate|].
    destruct todo as [|s rest].
    - inversion E; subst R. repeat split; auto using incl_refl, incl_nil_l.
      intros s Hs s' Hs'. destruct (Hinv s Hs s' Hs') as [H|[]]. exact H.
    - destruct (memb s seen) eqn:M.
      + apply memb_In in M. destruct (IH rest seen R E) as (A & B & C & D).
        * intros x [Hx|Hx]; apply He; [left; right|right]; exact Hx.
        * intros x Hx s' Hs'. destruct (Hinv x Hx s' Hs') as [H|[<-|H]]; auto.
        * repeat split; auto. intros x [<-|Hx]; auto.
      + destruct (IH _ _ R E) as (A & B & C & D).
        * intros x [Hx|[<-|Hx]]; [apply in_app_or in Hx; destruct Hx as [Hx|Hx]| |]; eauto using succs_erased with datatypes.
        * intros x [<-|Hx] s' Hs'; [right; apply in_or_app; left; exact Hs'|].
          destruct (Hinv x Hx s' Hs') as [H|[<-|H]]; [left; right; exact H|left; left; reflexivity|right; apply in_or_app; right; exact H].
        * repeat split; auto; [intros x Hx; apply A; right; exact Hx|].
          intros x [<-|Hx]; [apply A; left; reflexivity|apply B, in_or_app; right; exact Hx].
  Qed.

  Theorem explore_all_closed fuel R :
    explore_all P wc fuel = Some R -> memb (erase init_state) R = true /\ closed P wc R = true /\ erased_all R = true.
  Proof.
    intros E. destruct (explore_stable fuel _ _ R E) as (_ & B & C & D).
    - intros s [[<-|[]]|[]]. reflexivity.
    - intros s [].
    - split; [apply In_memb; [reflexivity|apply B; left; reflexivity]|]. split.
      + apply forallb_forall. intros s Hs. apply forallb_forall. intros a Ha.
        apply In_memb; [reflexivity|]. apply (C s Hs). exact (in_map (fun a => astep P a s) _ a Ha).
      + apply forallb_forall. exact D.
  Qed.

  (* each round either drops a state from the worklist or visits a new state of R' and adds at most D successors *)
  Lemma explore_within (R' : list mstate) D :
    stable R' -> (forall s, In s R' -> erased s = true) -> (forall s, In s R' -> length (enabled wc s) <= D) ->
    forall fuel todo seen,
      incl todo R' -> incl seen R' -> NoDup seen -> length todo + S D * (length R' - length seen) < fuel ->
      exists R, explore P wc fuel todo seen = Some R /\ incl R R'.
  Proof.
    intros Hst He Hd. induction fuel as [|f IH]; intros todo seen Ht Hs Hn Hm; [exfalso; exact (Nat.nlt_0_r _ Hm)|].
    destruct todo as [|s rest]; cbn [explore]; [exists seen; auto|].
    assert (HsR : In s R') by (apply Ht; left; reflexivity).
    destruct (memb s seen) eqn:M.
    - apply IH; auto; [intros x Hx; apply Ht; right; exact Hx|cbn [length] in Hm; lia].
    - assert (Hni : ~ In s seen) by (intros Hin; rewrite (In_memb s seen (He s HsR) Hin) in M; discriminate).
      assert (Hi : incl (s :: seen) R') by (intros x [<-|Hx]; auto).
      assert (Hnd : NoDup (s :: seen)) by (constructor; assumption).
      pose proof (NoDup_incl_length Hnd Hi) as Hl. cbn [length] in Hl, Hm.
      apply IH; auto.
      + apply incl_app; [apply Hst; exact HsR|intros x Hx; apply Ht; right; exact Hx].
      + unfold succs. rewrite app_length, map_length. specialize (Hd s HsR). cbn [length].
        replace (length R' - length seen) with (S (length R' - S (length seen))) in Hm by lia.
        rewrite Nat.mul_succ_r in Hm. lia.
  Qed.

  (* the visited set: a state is stored with the number of loop steps after which the loop is idle *)
  Definition entry := (mstate * nat)%type.
  Definition table := PositiveMap.t (list entry).

  (* States with the same key share a bucket. Any function would be sound. This one is cheap because it only applies
     constructors (numbers go in unary, n ones and a zero). It reads what [state_seqb] compares last as well as what it
     compares first -- the shape of every task (ready with which kind of signal / parked on what / finished how, depth of
     its stack), the gate counters, who is queued or parked, which nodes have results, are processed, have their event
     set -- because two states that agree on the tasks and differ in the storage take almost as long to tell apart as two
     equal states take to compare; with it almost every bucket holds one state. *)
  Fixpoint unary (n : nat) (p : positive) : positive := match n with O => xO p | S m => xI (unary m p) end.
  Definition key_bits (p : positive) (k : Values.key) : positive :=
    match k with KN i => xO (unary i p) | KSw i j => xI (xO (unary i (unary j p))) | KOo i j => xI (xI (unary i (unary j p))) end.
  Definition signal_bits (sg : signal) (p : positive) : positive :=
    match sg with SGo => xO (xO p) | SVal _ => xI (xO p) | SThrow _ => xO (xI p) | _ => xI (xI p) end.
  Definition task_bits (p : positive) (x : task frame) : positive :=
    match t_state x with
    | TReady k sg => xO (xO (signal_bits sg (unary (length k) p)))
    | TWait (WCond _) k => xI (xO (xO (unary (length k) p)))
    | TWait (WEvent _) k => xI (xO (xI (xO (unary (length k) p))))
    | TWait (WGate _) k => xI (xO (xI (xI (unary (length k) p))))
    | TDone sg => xI (xI (signal_bits sg p))
    end.
  Definition ctr_bits (p : positive) (c : ctr * nat) : positive :=
    unary (snd c)
          match fst c with
          | CBody i => xO (xO (unary i p))
          | CSleep i => xI (xO (unary i p))
          | CEmit m ev n =>
            xO (xI (unary m match ev with
                            | EvPipelineStart => xO (xO p) | EvPipelineComplete => xI (xO p)
                            | EvNodeStart => xO (xI p) | EvNodeComplete => xI (xI p)
                            end))
          | CSave n => xI (xI (key_bits p n))
          end.
  Definition key (s : mstate) : positive :=
    fold_left task_bits (st_tasks s)
      (fold_left ctr_bits (st_ctrs s)
         (fold_left (fun p t => unary t p) (st_ready s)
            (fold_left (fun p w => unary (snd w) p) (st_waiters s)
               (fold_left (fun p kv => key_bits (if is_exn (snd kv) then xO p else xI p) (fst kv)) (s_results (st_store s))
                  (fold_left key_bits (s_processed (st_store s)) (fold_left key_bits (st_events s) xH)))))).

  Definition bucket (s : mstate) (T : table) : list entry :=
    match PositiveMap.find (key s) T with Some b => b | None => [] end.
  Definition lookup (s : mstate) (T : table) : option nat :=
    option_map snd (find (fun e => state_seqb s (fst e)) (bucket s T)).
  Definition tadd (e : entry) (T : table) : table := PositiveMap.add (key (fst e)) (e :: bucket (fst e) T) T.
  Definition entries (T : table) : list entry := flat_map snd (PositiveMap.elements T).

  Lemma entries_find e T : In e (entries T) <-> exists k b, PositiveMap.find k T = Some b /\ In e b.
  Proof.
    unfold entries. rewrite in_flat_map. split.
    - intros [[k b] [Hk Hb]]. exists k, b. split; [apply PositiveMap.elements_complete; exact Hk|exact Hb].
    - intros [k [b [Hk Hb]]]. exists (k, b). split; [apply PositiveMap.elements_correct; exact Hk|exact Hb].
  Qed.

  Lemma lookup_In s r T : lookup s T = Some r -> In (s, r) (entries T).
  Proof.
    unfold lookup, bucket. intros H. apply entries_find. destruct (PositiveMap.find (key s) T) as [b|] eqn:F; [|discriminate H].
    match type of H with context [find ?f b] => destruct (find f b) as [[s' r']|] eqn:E end; [|discriminate H]. inversion H; subst r'.
    apply find_some in E. destruct E as [Hin He]. apply state_seqb_sound in He. cbn in He. subst s'. eauto.
  Qed.

  Lemma entries_tadd e e' T : In e' (entries (tadd e T)) <-> e' = e \/ In e' (entries T).
  Proof.
    rewrite !entries_find. unfold tadd, bucket. split.
    - intros [k [b [Hk Hb]]]. rewrite PositiveMapAdditionalFacts.gsspec in Hk.
      destruct (PositiveMap.E.eq_dec k (key (fst e))) as [->|_]; [|right; eauto].
      inversion Hk; subst b. destruct Hb as [<-|Hb]; [left; reflexivity|right].
      destruct (PositiveMap.find (key (fst e)) T) as [b0|] eqn:F; [eauto|destruct Hb].
    - intros [->|[k [b [Hk Hb]]]].
      + exists (key (fst e)). eexists. split; [apply PositiveMap.gss|left; reflexivity].
      + destruct (PositiveMap.E.eq_dec k (key (fst e))) as [->|Hne].
        * exists (key (fst e)). eexists. split; [apply PositiveMap.gss|]. rewrite Hk. right. exact Hb.
        * exists k, b. split; [rewrite PositiveMap.gso; auto|exact Hb].
  Qed.

  Lemma entries_fold new e' T : In e' (entries (fold_right tadd T new)) <-> In e' new \/ In e' (entries T).
  Proof. induction new as [|e r IH]; cbn [fold_right In]; [tauto|]. rewrite entries_tadd, IH. intuition (subst; auto). Qed.

  Definition numbered (E : list entry) : Prop :=
    forall s r, In (s, r) E -> st_ready s = [] \/ exists r1, In (astep P AStep s, r1) E /\ r1 < r.

  (* From a new state, follow the loop steps through new states until the loop is idle or a known state is met, and number
     the states passed by their distance from there: the states to add, and the number of s. *)
  Fixpoint run_on (fuel : nat) (s : mstate) (T : table) : option (list entry * nat) :=
    match lookup s T with
    | Some r => Some ([], r)
    | None =>
      match st_ready s, fuel with
      | [], _ => Some ([(s, 0)], 0)
      | _ :: _, O => None
      | _ :: _, S f => match run_on f (astep P AStep s) T with
                       | Some (rest, r1) => Some ((s, S r1) :: rest, S r1)
                       | None => None
                       end
      end
    end.

  Lemma run_on_spec fuel : forall s T new r, run_on fuel s T = Some (new, r) ->
    In (s, r) (new ++ entries T) /\ (erased s = true -> forall x rx, In (x, rx) new -> erased x = true) /\
    forall x rx, In (x, rx) new -> st_ready x = [] \/ exists r1, In (astep P AStep x, r1) (new ++ entries T) /\ r1 < rx.
  Proof.
    assert (Hknown : forall s T r, lookup s T = Some r -> In (s, r) (@nil entry ++ entries T) /\
              (erased s = true -> forall x rx, In (x, rx) (@nil entry) -> erased x = true) /\
              forall x rx, In (x, rx) (@nil entry) -> st_ready x = [] \/ exists r1, In (astep P AStep x, r1) (@nil entry ++ entries T) /\ r1 < rx).
    { intros s T r L. split; [exact (lookup_In _ _ _ L)|]. split; [intros _ x rx []|intros x rx []]. }
    assert (Hidle : forall s T, st_ready s = [] -> In (s, 0) ([(s, 0)] ++ entries T) /\
              (erased s = true -> forall x rx, In (x, rx) [(s, 0)] -> erased x = true) /\
              forall x rx, In (x, rx) [(s, 0)] -> st_ready x = [] \/ exists r1, In (astep P AStep x, r1) ([(s, 0)] ++ entries T) /\ r1 < rx).
    { intros s T Er. split; [left; reflexivity|]. split; [intros Hs x rx [E|[]]|intros x rx [E|[]]]; inversion E; subst; auto. }
    induction fuel as [|f IH]; intros s T new r H; cbn [run_on] in H; destruct (lookup s T) as [r0|] eqn:L.
    - inversion H; subst. exact (Hknown _ _ _ L).
    - destruct (st_ready s) eqn:Er; [|discriminate H]. inversion H; subst. exact (Hidle _ _ Er).
    - inversion H; subst. exact (Hknown _ _ _ L).
    - destruct (st_ready s) eqn:Er; [inversion H; subst; exact (Hidle _ _ Er)|].
      destruct (run_on f (astep P AStep s) T) as [[rest r1]|] eqn:Rn; [|discriminate H]. inversion H; subst. clear H.
      destruct (IH _ _ _ _ Rn) as (A & B & C). split; [left; reflexivity|]. split.
      + intros Hs x rx [E|Hx]; [inversion E; subst; exact Hs|exact (B eq_refl x rx Hx)].
      + intros x rx [E|Hx].
        * inversion E; subst. right. exists r1. split; [right; exact A|lia].
        * destruct (C x rx Hx) as [Ei|[r2 [H2 Hlt]]]; [left; exact Ei|right; exists r2; split; [right; exact H2|exact Hlt]].
  Qed.

  (* the worklist exploration of [explore] over the table, one run of loop steps at a time *)
  Definition others (s : mstate) : list mstate := map (fun a => astep P a s) (tl (enabled wc s)).
  Fixpoint explore_table (fuel : nat) (todo : list mstate) (T : table) : option table :=
    match todo, fuel with
    | [], _ => Some T
    | _ :: _, O => None
    | s :: rest, S f =>
      match run_on fuel s T with
      | Some (new, _) => explore_table f (flat_map (fun e => others (fst e)) new ++ rest) (fold_right tadd T new)
      | None => None
      end
    end.

  Definition covered (todo : list mstate) (T : table) : Prop :=
    numbered (entries T) /\
    forall s r, In (s, r) (entries T) -> erased s = true /\ forall s', In s' (others s) -> In s' (map fst (entries T)) \/ In s' todo.

  Lemma explore_table_spec fuel : forall todo T T',
    explore_table fuel todo T = Some T' -> (forall s, In s todo -> erased s = true) -> covered todo T ->
    covered [] T' /\ incl (entries T) (entries T') /\ incl todo (map fst (entries T')).
  Proof.
    induction fuel as [|f IH]; intros todo T T' H He Hc; destruct todo as [|s rest]; cbn [explore_table] in H;
      try discriminate H; try solve [inversion H; subst; auto using incl_refl, incl_nil_l].
    destruct (run_on (S f) s T) as [[new r]|] eqn:Rn; [|discriminate H].
    destruct (run_on_spec _ _ _ _ _ Rn) as (A & B & C). destruct Hc as [Hn Ho].
    assert (Hsub : incl (entries T) (entries (fold_right tadd T new))) by (intros e Hin; apply entries_fold; right; exact Hin).
    assert (Hnew : forall e, In e (new ++ entries T) -> In e (entries (fold_right tadd T new))).
    { intros e Hin. apply entries_fold. apply in_app_or. exact Hin. }
    destruct (IH _ _ _ H) as (X & Y & Z).
    - intros x Hx. apply in_app_or in Hx. destruct Hx as [Hx|Hx]; [|apply He; right; exact Hx].
      apply in_flat_map in Hx. destruct Hx as [e [_ Hx]]. apply in_map_iff in Hx. destruct Hx as [a [<- _]]. reflexivity.
    - split.
      + intros x rx Hin. apply entries_fold in Hin. destruct Hin as [Hin|Hin].
        * destruct (C x rx Hin) as [Ei|[r1 [H1 Hlt]]]; [left; exact Ei|right; exists r1; auto].
        * destruct (Hn x rx Hin) as [Ei|[r1 [H1 Hlt]]]; [left; exact Ei|right; exists r1; auto].
      + intros x rx Hin. apply entries_fold in Hin. destruct Hin as [Hin|Hin].
        * split; [exact (B (He s (or_introl eq_refl)) x rx Hin)|]. intros s' Hs'. right. apply in_or_app. left.
          apply in_flat_map. exists (x, rx). auto.
        * destruct (Ho x rx Hin) as [Ex Hx]. split; [exact Ex|]. intros s' Hs'.
          destruct (Hx s' Hs') as [Hk|[<-|Hk]]; [left|left|right; apply in_or_app; right; exact Hk].
          -- apply in_map_iff in Hk. destruct Hk as [e [<- Hk]]. exact (in_map fst _ _ (Hsub _ Hk)).
          -- exact (in_map fst _ _ (Hnew _ A)).
    - split; [exact X|]. split; [intros e Hin; exact (Y _ (Hsub _ Hin))|].
      intros x [<-|Hx]; [exact (in_map fst _ _ (Y _ (Hnew _ A)))|apply Z, in_or_app; right; exact Hx].
  Qed.

  Definition check_table (fuel : nat) (safe : mstate -> bool) (T : table) : bool :=
    let E := entries T in
    let D := fold_left (fun d e => Nat.max d (length (enabled wc (fst e)))) E 0 in
    forallb (fun e => Nat.leb (length (enabled wc (fst e))) D && Nat.leb (snd e) quiesce_bound && safe (fst e)) E
    && Nat.ltb (1 + S D * length E) fuel.

  Definition certify_fast (fuel : nat) (safe : mstate -> bool) : bool :=
    match explore_table fuel [erase init_state] (PositiveMap.empty _) with
    | Some T => check_table fuel safe T
    | None => false
    end.

  Lemma quiesce_idle n s : st_ready s = [] -> quiesce P n s = s.
  Proof. intros E. destruct n; cbn [quiesce]; [reflexivity|]. rewrite E. reflexivity. Qed.

  Lemma numbered_quiesce (E : list entry) : numbered E -> forall n s r, In (s, r) E -> r <= n -> safe_quiesce P n s = true.
  Proof.
    intros HE. induction n as [|m IH]; intros s r Hin Hr; destruct (HE s r Hin) as [Ei|[r1 [H1 Hlt]]];
      try (unfold safe_quiesce; rewrite (quiesce_idle _ _ Ei), Ei; reflexivity); [lia|].
    pose proof (IH _ r1 H1 ltac:(lia)) as H. change (astep P AStep s) with (erase (loop_step P s)) in H.
    rewrite safe_quiesce_erase in H. unfold safe_quiesce in *. cbn [quiesce]. destruct (st_ready s) eqn:Er; [rewrite Er; reflexivity|exact H].
  Qed.

  Lemma astep_idle s : erased s = true -> st_ready s = [] -> astep P AStep s = s.
  Proof.
    intros He Er. unfold astep. cbn [apply_action]. rewrite loop_step_unfold, Er. apply erased_fix.
    unfold erased in He. destruct (st_trace s); [reflexivity|discriminate].
  Qed.

  Theorem certify_fast_sound fuel safe safe' :
    (forall s, safe s = true -> safe_quiesce P quiesce_bound s = true -> safe' s = true) ->
    certify_fast fuel safe = true -> certify P wc fuel safe' = true.
  Proof.
    unfold certify_fast. destruct (explore_table _ _ _) as [T|] eqn:Ex; [|discriminate]. intros Hs H.
    destruct (explore_table_spec _ _ _ _ Ex) as ((Hn & Ho) & _ & Hi); [intros s [<-|[]]; reflexivity|split; intros s r []|].
    unfold check_table in H. cbv zeta in H. set (E := entries T) in *.
    set (D := fold_left (fun d (e : mstate * nat) => Nat.max d (length (enabled wc (fst e)))) E 0) in *.
    apply andb_true_iff in H. destruct H as [Ha Hf]. apply Nat.ltb_lt in Hf. rewrite forallb_forall in Ha.
    set (R' := map fst E) in *. assert (Hlen : length R' = length E) by apply map_length. rewrite <- Hlen in Hf.
    assert (Hall : forall s, In s R' -> erased s = true /\ length (enabled wc s) <= D /\ incl (succs s) R' /\ safe' s = true).
    { intros s Hin. apply in_map_iff in Hin. destruct Hin as [[s0 r] [<- Hin]]. cbn [fst].
      specialize (Ha _ Hin). cbn [fst snd] in Ha. rewrite !andb_true_iff in Ha. destruct Ha as [[B C] O]. apply Nat.leb_le in B, C.
      destruct (Ho s0 r Hin) as [A G]. repeat split; auto; [|exact (Hs _ O (numbered_quiesce E Hn _ _ _ Hin C))].
      intros s' [<-|Hs']; [|destruct (G s' Hs') as [Hk|[]]; exact Hk].
      destruct (Hn s0 r Hin) as [Ei|[r1 [H1 _]]]; [rewrite (astep_idle _ A Ei); exact (in_map fst _ _ Hin)|exact (in_map fst _ _ H1)]. }
    destruct (explore_within R' D) with (fuel := fuel) (todo := [erase init_state]) (seen := @nil mstate) as [R [Er Hincl]];
      try (intros s Hin; apply (Hall s Hin)); [exact Hi|intros s []|constructor|cbn [length]; lia|].
    destruct (explore_all_closed fuel R Er) as (A & B & C).
    unfold certify. unfold explore_all in Er. unfold explore_all. rewrite Er, A, B, C. cbn [andb].
    apply forallb_forall. intros s Hin. apply (Hall s (Hincl s Hin)).
  Qed.

  Corollary certify_same_sound fuel safe : certify_fast fuel safe = true -> certify P wc fuel safe = true.
  Proof. apply certify_fast_sound. auto. Qed.

  Corollary certify_term_sound fuel : certify_fast fuel safe_live = true -> certify P wc fuel (safe_term P) = true.
  Proof. apply certify_fast_sound. intros s A B. unfold safe_term. rewrite A. exact B. Qed.

  (* [safe_full] runs the reference evaluation again for every counter and every retry frame of every state, and asks at
     every state whether the program is plain; evaluated that way the predicate costs as much as the exploration.  Below
     are its conjuncts that read the reference, word for word, over a given log / result / flag. *)
  Section Reference.
    Variable log : list exec_rec.
    Variable rs : res.
    Variable plain : bool.

    Definition outcome_ok_with (allow_cancel : bool) (r : signal) : bool :=
      match r with
      | SVal v => match rs with ROk v' => value_seqb v v' | RFail _ => false end
      | SResErr e => match rs with RFail cs => existsb (cause_matches e) cs && is_Exception e | ROk _ => false end
      | SThrow XCancelled => allow_cancel
      | SThrow e => match rs with RFail cs => existsb (cause_matches e) cs && negb (is_Exception e) | ROk _ => false end
      | _ => false
      end.
    Definition safe_outcome_with (allow_cancel : bool) (st : mstate) : bool :=
      match main_state st with Some (TDone r) => outcome_ok_with allow_cancel r | _ => true end.
    Definition ref_invocations_with (i : nat) : nat :=
      fold_left (fun acc x => if Nat.eqb (x_node x) i then acc + x_attempts x else acc) log 0.
    Definition safe_counts_with (st : mstate) : bool :=
      forallb (fun ck => match fst ck with CBody i => Nat.leb (snd ck) (ref_invocations_with i) | _ => true end) (st_ctrs st).
    Definition ref_kwargs_ok_with (i : nat) (kw : kwargs) : bool :=
      existsb (fun x => Nat.eqb (x_node x) i && list_eqb (prod_eqb Nat.eqb value_seqb) kw (x_kw x)) log.
    Definition frame_kwargs_ok_with (f : frame) : bool :=
      match f with
      | FRetry i _ kw _ | FRetryAfterBody i kw _ | FRetryAfterEmit i kw _ | FRetryAfterSleep i kw _ => ref_kwargs_ok_with i kw
      | _ => true
      end.
    Definition safe_kwargs_with (st : mstate) : bool :=
      forallb (fun t => match t_state t with TReady k _ | TWait _ k => forallb frame_kwargs_ok_with k | TDone _ => true end)
              (st_tasks st).
    Definition ref_executions_with (i : nat) : nat := length (filter (fun x => Nat.eqb (x_node x) i) log).
    Definition ref_forced_defaults_with (i : nat) : nat :=
      length (filter (fun x => Nat.eqb (x_node x) i && Nat.eqb (x_attempts x) 0) log).
    Definition safe_events_with (st : mstate) : bool :=
      forallb (fun ck => match fst ck with
                         | CEmit m EvPipelineStart None => Nat.leb (snd ck) 1
                         | CEmit m EvPipelineComplete None => Nat.leb (snd ck) 1 && helpers_over st
                         | CEmit m EvNodeStart (Some (KN i)) => Nat.leb (snd ck) (ref_executions_with i)
                         | CEmit m EvNodeComplete (Some (KN i)) =>
                           Nat.leb (snd ck) (ref_invocations_with i + ref_forced_defaults_with i)
                         | CEmit _ _ _ => false
                         | _ => true
                         end) (st_ctrs st)
      && (Nat.eqb (p_mgrs P) 0
          || match st_ctrs st with [] => true | _ => Nat.eqb (ctr_get (CEmit 0 EvPipelineStart None) st) 1 end).
    Definition safe_full_with (allow_cancel : bool) (st : mstate) : bool :=
      safe_live st && safe_outcome_with allow_cancel st && safe_counts_with st && safe_kwargs_with st
      && safe_saves st && safe_events_with st && (negb plain || safe_c06 P st).
  End Reference.

  Lemma safe_full_with_reference c st :
    safe_full_with (ref_log P) (ref_res P) (frag_Plain (p_decls P)) c st && safe_quiesce P quiesce_bound st = safe_full P c st.
  Proof.
    unfold safe_full, safe_all. change (ref_log P) with (e_log (fst (ref_eval P))). 
    destruct (safe_quiesce P quiesce_bound st); rewrite ?andb_true_r, ?andb_false_r; reflexivity.
  Qed.

  Theorem certify_full_sound fuel c :
    (let re := ref_eval P in let plain := frag_Plain (p_decls P) in
     certify_fast fuel (safe_full_with (e_log (fst re)) (snd re) plain c)) = true ->
    certify P wc fuel (safe_full P c) = true.
  Proof. apply certify_fast_sound. intros s A B. rewrite <- safe_full_with_reference. cbv zeta in *. unfold ref_log, ref_res. rewrite A. exact B. Qed.
End Certify.
