(* C03 -- A node starts only after its inputs are final and gets exactly their values.

   Full statement: every body invocation of node i receives keyword arguments equal to what the reference semantics passes to i
   in some execution of i (one keyword per declared parameter, final values of the declared inputs, never a failure object, a
   Recurrent marker or a placeholder; the reference never produces those as arguments).
   Proved here, kind E, for every program of the clean catalogue and every schedule (incl. cancellation): the arguments held by
   every frame of the retry loop of every task (FRetry / FRetryAfterBody / FRetryAfterEmit / FRetryAfterSleep -- the arguments a
   body is, was or will again be invoked with) are arguments of the reference for that node; and no body is invoked more often
   than the reference invokes it. Limitation: a body that does not suspend (inline / immediate mode) is invoked and finished
   inside one loop step, so its arguments never rest in a frame between steps; for those the statement is decided by the
   oracle on the implementation and by the correspondence of traces only. FALSE in general (known findings D9, D11, D12, D13, D17).
   Kind G (ALL programs, EVERY schedule incl. cancellation; Proofs/ArgsAll.v; on the history, so inline bodies are included):
   C03_arguments_come_from_the_declared_inputs / C03_default_arguments_come_from_the_declared_inputs -- the keyword arguments of
   every body invocation and of every get_default call are what _get_node_kwargs builds from the node's declared dependencies
   (one entry per incoming edge that names a parameter, the caller's input_kwargs for the input node, additional_data for a start
   node), and every value in them was stored before the call as the result of the declared source (for a switch parameter: of
   the case recorded for the switch) or is None. Not said there: that the value is the source's FINAL value (false in general:
   D9) and that it is not a failure object (false in general: D11). *)
From MLPE Require Import Engine.Run Spec.Dataflow Explore.StateEq Explore.Safe Catalogue.Programs Proofs.CertLemmas.

Definition C03_statement_on_frames (P : prog) : Prop :=
  forall st, reachable P st -> safe_kwargs P st = true.

Theorem C03_catalogue : forall P, In P catalogue_clean -> C03_statement_on_frames P.
Proof. intros P HP st Hr. destruct (certified_facts P st (in_clean_certified P HP) Hr) as (_ & _ & _ & _ & H & _). exact H. Qed.
Print Assumptions C03_catalogue.

(* spelled out for one frame: a task about to invoke / having invoked the body of node i with kw *)
Theorem C03_arguments_are_reference_arguments :
  forall P, In P catalogue_clean ->
    forall st x k sg i force kw att, reachable P st -> In x (st_tasks st) -> t_state x = TReady k sg \/ (exists w, t_state x = TWait w k) ->
      In (FRetry i force kw att) k \/ In (FRetryAfterBody i kw att) k ->
      exists e, In e (ref_log P) /\ x_node e = i /\ x_kw e = kw.
Proof.
  intros P HP st x k sg i force kw att Hr Hx Hs Hf. pose proof (C03_catalogue P HP st Hr) as H.
  unfold safe_kwargs in H. rewrite forallb_forall in H. specialize (H x Hx).
  assert (Hk : forallb (frame_kwargs_ok P) k = true).
  { destruct Hs as [E|[w E]]; rewrite E in H; exact H. }
  rewrite forallb_forall in Hk.
  assert (Hok : ref_kwargs_ok P i kw = true).
  { destruct Hf as [Hf|Hf]; specialize (Hk _ Hf); exact Hk. }
  unfold ref_kwargs_ok in Hok. apply existsb_exists in Hok. destruct Hok as [e [He Hm]].
  apply andb_true_iff in Hm. destruct Hm as [H1 H2]. apply Nat.eqb_eq in H1.
  apply (list_eqb_sound _ (prod_eqb_sound _ _ nat_eqb_sound value_seqb_sound)) in H2. exists e. auto.
Qed.
Print Assumptions C03_arguments_are_reference_arguments.

(* kind F: ALL plain programs (no switch, no one-of, no body asking for another iteration; any size and shape, any retry /
   default settings, execution modes, event managers, stores and collaborator faults), ALL schedules incl. cancellation:
   no body and no get_default is ever invoked with a failure object or a Recurrent marker as an argument (one clause of C03;
   the other clauses -- one keyword per parameter, final values, input node gets input_kwargs -- are kind E above). *)
From MLPE Require Import Proofs.PlainWorld Proofs.PlainLive.

Theorem C03_on_plain_programs_no_failure_object_or_marker_as_argument :
  forall P, plain_prog P ->
    forall st i k kw p v, reachable P st -> In (OStart i k kw) (st_trace st) \/ In (ODefault i kw) (st_trace st) -> In (p, v) kw ->
      is_rec v = false /\ is_exn v = false.
Proof.
  intros P HP st i k kw p v Hr Hin Hv.
  assert (H : kw_clean kw = true).
  { destruct Hin as [Hin|Hin]; exact (plain_prog_values_in_flight P st _ HP Hr Hin). }
  unfold kw_clean in H. rewrite forallb_forall in H. specialize (H _ Hv). cbn [snd] in H.
  split; [apply clean_not_rec|apply clean_not_exn]; exact H.
Qed.
Print Assumptions C03_on_plain_programs_no_failure_object_or_marker_as_argument.

Example C03_plain_not_vacuous :
  plain_prog cat_rhombus /\
  existsb (fun o => match o with OStart 3 _ (_ :: _ :: _) => true | _ => false end) (st_trace (auto_run cat_rhombus 40 init_state)) = true /\
  reachable cat_rhombus (auto_run cat_rhombus 40 init_state).
Proof.
  split; [|split; [vm_compute; reflexivity|apply auto_run_reachable, reach_init]].
  eapply dsl_plain_prog; [reflexivity|vm_compute; reflexivity|vm_compute; reflexivity|vm_compute; reflexivity].
Qed.

(* kind F, the main clause: ALL plain programs, ALL schedules, at every point while manager.run is pending:
   every body invocation logged so far, and every argument list held by the retry loop of a node task (what a body is, was or
   will again be invoked with), is exactly the keyword-argument list computed from the stored results of the node's declared
   inputs; a node has a task only when all its declared inputs have a result; and a stored result is never replaced (it is
   final: results_final_step in Proofs/PlainArgs.v, which is what keeps `node_kwargs` stable from the invocation on). *)
From MLPE Require Import Proofs.PlainCore Proofs.PlainArgs.

Theorem C03_on_plain_programs_arguments_are_the_final_values_of_the_inputs :
  forall P, plain_prog P -> NoDup (p_order P (maind P)) ->
    forall st, reachable P st -> over st = false -> main_done st = false ->
      (forall i k kw, In (OStart i k kw) (st_trace st) ->
         exists m, real_index m = i /\ node_kwargs P st m = Some kw /\
                   forall p, In p (preds (b_graph (build (p_decls P) (p_inp P) (p_out P))) m) -> exists_result p (st_store st) = true) /\
      (forall x m f j kw, In x (st_tasks st) -> t_name x = TNNode m -> In f (estack (t_state x)) -> retry_kw f = Some (j, kw) ->
         j = real_index m /\ node_kwargs P st m = Some kw) /\
      (forall x m p, In x (st_tasks st) -> t_name x = TNNode m -> In p (preds (b_graph (build (p_decls P) (p_inp P) (p_out P))) m) ->
         exists_result p (st_store st) = true).
Proof. exact plain_arguments_are_final_values. Qed.
Print Assumptions C03_on_plain_programs_arguments_are_the_final_values_of_the_inputs.

(* a state in the middle of a run of the rhombus: the last node's body has been invoked with two arguments, the run is pending *)
Example C03_plain_arguments_not_vacuous :
  let st := auto_run cat_rhombus 4 init_state in
  over st = false /\ main_done st = false /\
  existsb (fun o => match o with OStart 3 _ (_ :: _ :: _) => true | _ => false end) (st_trace st) = true.
Proof. vm_compute. repeat split; reflexivity. Qed.

(* kind G: all programs, all schedules *)
From MLPE Require Import Proofs.ArgsAll.

Theorem C03_arguments_come_from_the_declared_inputs :
  forall P st, reachable P st ->
    forall a b i k kw, st_trace st = a ++ OStart i k kw :: b ->
      exists n val ad, real_index n = i /\ gen_kwargs P n val ad = Some kw /\ (forall p v, val p = Some v -> prov P b p v) /\ ad_ok P b n ad.
Proof. exact arguments_come_from_the_declared_inputs_all_programs. Qed.
Print Assumptions C03_arguments_come_from_the_declared_inputs.

Theorem C03_default_arguments_come_from_the_declared_inputs :
  forall P st, reachable P st ->
    forall a b i kw, st_trace st = a ++ ODefault i kw :: b ->
      exists n val ad, real_index n = i /\ gen_kwargs P n val ad = Some kw /\ (forall p v, val p = Some v -> prov P b p v) /\ ad_ok P b n ad.
Proof. exact default_arguments_come_from_the_declared_inputs_all_programs. Qed.
Print Assumptions C03_default_arguments_come_from_the_declared_inputs.
