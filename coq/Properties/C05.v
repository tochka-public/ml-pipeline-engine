(* C05 -- Failures are reported faithfully: right verdict, real root-cause error.

   [outcome_ok P c r]: r = SVal v only if the reference evaluates to v; r = SResErr e (PipelineResult(error=e)) only if the
   reference fails and e is a root cause of that failure (an exception raised by a required node of this run as its final
   failure, or the documented one-of / recurrent / switch error), and e is an Exception;
   r = SThrow e (run raises) only for a BaseException outside Exception that is a root cause, or the caller's own cancellation.
   Engine-internal artefacts (EInternal = KeyError & co, a helper task's CancelledError) are never a root cause of the reference,
   hence never the outcome. Kind E: clean catalogue, every schedule. FALSE in general (known findings D9, D11, D12, D17).
   Kind G (ALL programs, all schedules incl. cancellation, event managers that do not raise): run never raises an Exception
   subclass -- what it raises is a BaseException outside Exception -- and what it reports as PipelineResult.error is an Exception
   (C05_run_never_raises_an_exception_subclass) that was the error of a finished, not cancelled helper task at the moment run()
   looked, or the pool-registry error (C05_reported_error_is_a_task_error): never a CancelledError of its own helpers. *)
From MLPE Require Import Engine.Run Spec.Dataflow Explore.StateEq Explore.Safe Catalogue.Programs Proofs.CertLemmas.

Definition C05_statement (P : prog) : Prop :=
  forall st r, reachable P st -> main_state st = Some (TDone r) -> outcome_ok P true r = true.

Theorem C05_catalogue : forall P, In P catalogue_clean -> C05_statement P.
Proof.
  intros P HP st r Hr Hm. destruct (certified_facts P st (in_clean_certified P HP) Hr) as (_ & _ & H & _).
  unfold safe_outcome in H. rewrite Hm in H. exact H.
Qed.
Print Assumptions C05_catalogue.

(* run never raises an Exception subclass, never reports an internal artefact, never returns a value when the reference fails *)
Theorem C05_never_an_artefact :
  forall P, In P catalogue_clean -> forall st r, reachable P st -> main_state st = Some (TDone r) ->
    match r with
    | SThrow e => is_Exception e = false
    | SResErr e => is_Exception e = true /\ (forall k, e <> XEng EInternal k) /\ e <> XCancelled
    | SVal v => ref_res P = ROk v
    | _ => False
    end.
Proof.
  intros P HP st r Hr Hm. pose proof (C05_catalogue P HP st r Hr Hm) as H. unfold outcome_ok in H.
  destruct r as [|v| |e|e]; try discriminate.
  - destruct (ref_res P) as [v'|cs]; [|discriminate]. apply value_seqb_sound in H. subst. reflexivity.
  - destruct e as [c i a|ee k|k|k|]; try reflexivity; destruct (ref_res P) as [v'|cs]; try discriminate;
      apply andb_true_iff in H; destruct H as [_ H]; apply negb_true_iff in H; exact H.
  - destruct (ref_res P) as [v'|cs]; [discriminate|]. apply andb_true_iff in H. destruct H as [H1 H2]. split; [exact H2|]. split.
    + intros k ->. apply existsb_exists in H1. destruct H1 as [c [_ Hc]]. destruct c; discriminate Hc.
    + intros ->. discriminate H2.
Qed.
Print Assumptions C05_never_an_artefact.

(* kind G: ALL programs, ALL schedules incl. caller cancellation, event managers that do not raise *)
From MLPE Require Import Proofs.ErrAll.

(* (the second disjunct of the first clause is the interpreter giving up -- fuel --, which never occurs on a compared run) *)
Theorem C05_run_never_raises_an_exception_subclass :
  forall P, (forall m ev n k, p_mgr_fault P m ev n k = false) ->
  forall st, reachable P st ->
    (forall e, main_state st = Some (TDone (SThrow e)) -> is_Exception e = false \/ exists k, e = XEng EOutOfFuel k) /\
    (forall e, main_state st = Some (TDone (SResErr e)) -> is_Exception e = true).
Proof. exact run_never_raises_an_exception_subclass_all_programs. Qed.
Print Assumptions C05_run_never_raises_an_exception_subclass.

(* [ORunDone alts] in the history: run() looked at its helper tasks and found the errors alts of the finished, not cancelled ones *)
Theorem C05_reported_error_is_a_task_error :
  forall P, (forall m ev n k, p_mgr_fault P m ev n k = false) ->
  forall st e, reachable P st -> main_state st = Some (TDone (SResErr e)) ->
    (exists alts, In (ORunDone alts) (st_trace st) /\ In e alts) \/ exists k, e = XEng EPoolNotReady k.
Proof. exact reported_error_is_a_task_error_all_programs. Qed.
Print Assumptions C05_reported_error_is_a_task_error.

(* kind F: ALL plain programs, ALL schedules incl. caller cancellation:
   what run reports as PipelineResult.error was raised by a node body of this program at the attempt it names (with some argument
   list), by an event manager or by the artifact store, or is the pool-not-ready error -- and it is an Exception; what run raises
   is such an exception or the caller's CancelledError. Never a CancelledError of its own helper tasks, an internal lookup error or
   the engine's "no result" errors. (The interpreter's out-of-fuel artefact is the one model-only alternative in the second clause:
   excluded on the catalogue by the certificates; the driver reports it on every compared run.) Proofs/PlainErrors.v proves more:
   every exception in flight anywhere -- thrown into a frame, held by a frame, the result of any task -- has such an origin. *)
From MLPE Require Import Proofs.PlainLive Proofs.PlainErrors.

Theorem C05_on_plain_programs_reported_errors_are_genuine :
  forall P, plain_prog P -> forall st, reachable P st ->
    (forall e, main_state st = Some (TDone (SResErr e)) -> raised P e /\ is_Exception e = true) /\
    (forall e, main_state st = Some (TDone (SThrow e)) ->
               e = XCancelled \/ raised P e \/ e = XEng EOutOfFuel (b_input (build (p_decls P) (p_inp P) (p_out P)))).
Proof. exact plain_errors_are_genuine. Qed.
Print Assumptions C05_on_plain_programs_reported_errors_are_genuine.

Example C05_plain_not_vacuous :
  match main_state (auto_run cat_rhombus_fail 40 init_state) with Some (TDone (SResErr (XNode _ _ _))) => True | _ => False end.
Proof. vm_compute. exact I. Qed.
