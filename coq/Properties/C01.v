(* C01 -- Run outcome equals the dataflow semantics and is schedule-independent.

   Reference semantics: Spec/Dataflow.v ([eval_output]: the declared graph evaluated as a pure dataflow program with the
   switch / one-of / recurrent / retry-default rules), independent of the engine model. [outcome_ok P c r] (Explore/Safe.v) says
   that the signal r with which PipelineChart.run ends is what the reference prescribes: the same value; or an error result
   whose exception is a root cause of the reference's failure; or a propagated BaseException
   that is a root cause; or, only when c = true, the caller's own CancelledError.

   Full statement:  C01_statement P := for every schedule without caller cancellation that ends the run with r, outcome_ok P false r.
   It is FALSE for some programs (known findings D9, D11, D12, D13, D17); proved here, kind E, for every program of the clean
   catalogue and EVERY schedule of unbounded length (certified exhaustive exploration); with caller cancellation allowed the
   only additional outcome is CancelledError.
   Kind F (below; Proofs/PlainValues.v, PlainOutcome.v): for ALL plain programs with valid library orders (valid_orders, see C02)
   and ALL schedules (caller cancellation included)
   a value returned by run is the result stored for the output node while manager.run was pending; every stored result is the value
   the node's retry / default policy prescribes (the relation rr, whose closed form is C12's) for its body applied to the
   keyword arguments computed from the final results of its declared inputs; hence two schedules return the same value and store
   the same results. What kind F does NOT give: the identification of that prescribed value with Spec/Dataflow.eval_output (it
   needs the builder's correctness, C15), and the error outcomes (C05).
   Kind G (ALL programs, all schedules, event managers that do not raise; Proofs/StoreAll.v): run returns nothing that no node
   produced -- a value returned by run was stored as the output node's result (C01_returned_value_was_stored_for_the_output_node),
   every result in the storage was put there by a logged store operation.  Outside plain programs and the catalogue the rest of
   the property is decided on the implementation by the oracle against the extracted reference and by the correspondence check. *)
From MLPE Require Import Engine.Run Spec.Dataflow Explore.StateEq Explore.Erase Explore.Safe Catalogue.Programs Proofs.CertLemmas.

Definition C01_statement (P : prog) : Prop :=
  forall sched r, forallb (act_ok false) sched = true -> main_state (run_sched P sched) = Some (TDone r) ->
                  outcome_ok P false r = true.

Theorem C01_catalogue : forall P, In P catalogue_clean -> C01_statement P.
Proof. intros P HP sched r Hs Hm. exact (certified_outcome_without_cancel P sched r (in_clean_certified P HP) Hs Hm). Qed.
Print Assumptions C01_catalogue.

(* schedule independence of the value: any two schedules that end the run with values end it with the reference's value *)
Theorem C01_value_is_schedule_independent :
  forall P, In P catalogue_clean ->
    forall s1 s2 v1 v2, forallb (act_ok false) s1 = true -> forallb (act_ok false) s2 = true ->
      main_state (run_sched P s1) = Some (TDone (SVal v1)) -> main_state (run_sched P s2) = Some (TDone (SVal v2)) ->
      v1 = v2 /\ ref_res P = ROk v1.
Proof.
  intros P HP s1 s2 v1 v2 H1 H2 M1 M2.
  pose proof (outcome_value P false v1 (C01_catalogue P HP s1 _ H1 M1)) as E1.
  pose proof (outcome_value P false v2 (C01_catalogue P HP s2 _ H2 M2)) as E2.
  rewrite E1 in E2. inversion E2. subst. split; [reflexivity|exact E1].
Qed.
Print Assumptions C01_value_is_schedule_independent.

(* a run that the reference evaluates to a value never ends with an error result or an exception, and vice versa *)
Theorem C01_verdict_is_schedule_independent :
  forall P, In P catalogue_clean ->
    forall sched r, forallb (act_ok false) sched = true -> main_state (run_sched P sched) = Some (TDone r) ->
      match ref_res P with
      | ROk v => r = SVal v
      | RFail _ => match r with SResErr _ | SThrow _ => True | _ => False end
      end.
Proof.
  intros P HP sched r Hs Hm. pose proof (C01_catalogue P HP sched r Hs Hm) as H. unfold outcome_ok in H.
  destruct (ref_res P) as [v|cs]; destruct r as [|v'| |e|e]; try discriminate; try exact I.
  - apply value_seqb_sound in H. subst. reflexivity.
  - destruct e; discriminate.
Qed.
Print Assumptions C01_verdict_is_schedule_independent.

(* with caller cancellation at any point of the schedule the only further outcome is the caller's CancelledError *)
Theorem C01_with_cancellation :
  forall P, In P catalogue_clean -> forall st r, reachable P st -> main_state st = Some (TDone r) -> outcome_ok P true r = true.
Proof.
  intros P HP st r Hr Hm. destruct (certified_facts P st (in_clean_certified P HP) Hr) as (_ & _ & H & _).
  unfold safe_outcome in H. rewrite Hm in H. exact H.
Qed.
Print Assumptions C01_with_cancellation.

(* non-vacuity: a concrete schedule of a catalogue program ends the run with the reference's value *)
Example C01_premises_satisfiable :
  In cat_rhombus catalogue_clean /\
  exists v, main_state (run_sched cat_rhombus [AQuiesce; AGate (GBody 0 0); AQuiesce; AGate (GBody 2 0); AGate (GBody 1 0); AQuiesce;
                                             AGate (GBody 3 0); AQuiesce]) = Some (TDone (SVal v)).
Proof. split; [in_catalogue|]. eexists. vm_compute. reflexivity. Qed.


(* kind G: ALL programs, ALL schedules, event managers that do not raise *)
From MLPE Require Import Proofs.StoreAll.

Theorem C01_returned_value_was_stored_for_the_output_node :
  forall P, (forall m ev n k, p_mgr_fault P m ev n k = false) ->
  forall st v, reachable P st -> main_state st = Some (TDone (SVal v)) ->
    In (OSetResult (b_output (build (p_decls P) (p_inp P) (p_out P))) v) (st_trace st).
Proof. exact returned_value_is_the_stored_result_of_the_output_all_programs. Qed.
Print Assumptions C01_returned_value_was_stored_for_the_output_node.

(* kind F: ALL plain programs, ALL schedules *)
From MLPE Require Import Proofs.PlainLive Proofs.PlainDeadlock Proofs.PlainValues Proofs.PlainOutcome Proofs.Micro.

Theorem C01_on_plain_programs_the_value_is_schedule_independent :
  forall P, plain_prog P -> valid_orders P ->
    forall st1 st2 v1 v2, reachable P st1 -> main_state st1 = Some (TDone (SVal v1)) ->
                          reachable P st2 -> main_state st2 = Some (TDone (SVal v2)) -> v1 = v2.
Proof. intros P HP (V1 & _ & V3 & _). exact (plain_returned_value_is_schedule_independent P HP V1 V3). Qed.
Print Assumptions C01_on_plain_programs_the_value_is_schedule_independent.

Theorem C01_on_plain_programs_the_value_is_the_prescribed_one :
  forall P, plain_prog P -> valid_orders P ->
    forall st v, reachable P st -> main_state st = Some (TDone (SVal v)) ->
      exists st0 c0, creach P st0 c0 /\ pending st0 /\ okv P st0 (b_output (build (p_decls P) (p_inp P) (p_out P))) v /\
                     forall p, In p (preds (b_graph (build (p_decls P) (p_inp P) (p_out P))) (b_output (build (p_decls P) (p_inp P) (p_out P)))) ->
                               exists_result p (st_store st0) = true.
Proof. intros P HP (V1 & _ & V3 & _). exact (plain_returned_value_is_prescribed P HP V1). Qed.
Print Assumptions C01_on_plain_programs_the_value_is_the_prescribed_one.

Theorem C01_on_plain_programs_stored_results_are_schedule_independent :
  forall P, plain_prog P -> valid_orders P ->
    forall st1 st2, reachable P st1 -> pending st1 -> reachable P st2 -> pending st2 ->
      forall m, exists_result m (st_store st1) = true -> exists_result m (st_store st2) = true ->
                get_result m true (st_store st1) = get_result m true (st_store st2).
Proof. intros P HP (V1 & _ & V3 & _). exact (plain_results_are_schedule_independent P HP V1 V3). Qed.
Print Assumptions C01_on_plain_programs_stored_results_are_schedule_independent.

(* a run of the rhombus that ends with a value (so the theorems are not vacuous), under the first-gate-first schedule *)
Example C01_plain_not_vacuous :
  match main_state (auto_run cat_rhombus 40 init_state) with Some (TDone (SVal _)) => True | _ => False end.
Proof. vm_compute. exact I. Qed.
