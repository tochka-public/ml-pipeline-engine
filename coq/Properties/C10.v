(* C10 -- One-of yields the first successful candidate, lazily, and contains failures.

   Kind E, for the one-of programs of the clean catalogue (first / last candidate wins, all fail, None value, failure three hops
   above a candidate, a candidate with two parallel dependencies one of which fails while the other is in flight, nested
   one-of, a node shared between candidates) and every schedule incl. cancellation: executions never exceed the reference's
   (later candidates and the nodes only they need are never executed; a candidate is tried only after the earlier ones
   failed: the reference tries them in order), arguments are the reference's (never a failure object), the outcome is the
   reference's (a contained failure does not fail the run; all candidates failing gives OneOfDoesNotHaveResultError), no deadlock.
   Kind G (ALL programs -- any constructs around and inside the candidates, any bodies, collaborators and order oracles --, EVERY
   schedule incl. cancellation; theorems about the history [st_trace], Proofs/OneOfAll.v):
     - C10_result_is_the_first_successful_candidate: whenever a result is stored for a one-of, it is either the value stored
       for one of its candidates, all candidates declared before that one having failed (a node of their sub-pipeline stored
       a failure) -- or the documented OneOfDoesNotHaveResultError, every candidate having failed;
     - C10_candidates_are_tried_in_declared_order: the sub-pipeline of a candidate is launched only after every candidate
       declared before it has failed (so later candidates are not even looked at while an earlier one is undecided);
     - C10_one_position_at_a_time: every one-of in flight is at one position of its declared candidate list.
   What these do NOT say: that the winning value is the reference semantics' value, and that nodes shared with other scopes are
   not executed (both kind E / correspondence). FALSE in general: the full statement (known findings D11, D17). *)
From MLPE Require Import Engine.Run Spec.Dataflow Explore.StateEq Explore.Erase Explore.Safe Catalogue.Programs Proofs.CertLemmas.

Definition C10_statement (P : prog) : Prop :=
  forall st, reachable P st ->
    (forall i, ctr_get (CBody i) st <= ref_invocations P i) /\ safe_kwargs P st = true /\ deadlocked st = false
    /\ (forall r, main_state st = Some (TDone r) -> outcome_ok P true r = true).

Theorem C10_catalogue : forall P, In P catalogue_clean -> C10_statement P.
Proof.
  intros P HP st Hr. destruct (certified_facts P st (in_clean_certified P HP) Hr) as (Hd & _ & Ho & Hc & Hk & _).
  split; [intros i; apply safe_counts_bound; exact Hc|]. split; [exact Hk|]. split; [exact Hd|].
  intros r Hm. unfold safe_outcome in Ho. rewrite Hm in Ho. exact Ho.
Qed.
Print Assumptions C10_catalogue.

(* laziness: when the first candidate succeeds the second is never executed, under any schedule *)
Theorem C10_later_candidate_never_runs :
  forall st, reachable cat_oneof_first st -> ctr_get (CBody 2) st = 0.
Proof.
  intros st Hr. assert (HP : In cat_oneof_first catalogue_clean) by in_catalogue.
  destruct (C10_catalogue _ HP st Hr) as [H _]. specialize (H 2).
  replace (ref_invocations cat_oneof_first 2) with 0 in H by (vm_compute; reflexivity). lia.
Qed.
Print Assumptions C10_later_candidate_never_runs.

(* a failure three hops above the first candidate: its descendants are never executed and the run still succeeds *)
Theorem C10_failure_is_contained :
  forall sched r, forallb (act_ok false) sched = true -> main_state (run_sched cat_oneof_deep_failure sched) = Some (TDone r) ->
    exists v, r = SVal v /\ ref_res cat_oneof_deep_failure = ROk v.
Proof.
  intros sched r Hs Hm. assert (HP : In cat_oneof_deep_failure catalogue_clean) by in_catalogue.
  pose proof (certified_outcome_without_cancel _ sched r (in_clean_certified _ HP) Hs Hm) as H.
  assert (Hok : exists v, ref_res cat_oneof_deep_failure = ROk v) by (eexists; vm_compute; reflexivity).
  destruct Hok as [v0 E]. unfold outcome_ok in H. rewrite E in H.
  destruct r as [|v| |e|e]; try discriminate.
  - apply value_seqb_sound in H. subst. eauto.
  - destruct e; discriminate.
Qed.
Print Assumptions C10_failure_is_contained.

(* all candidates fail: the documented error, under every schedule *)
Theorem C10_all_candidates_fail :
  forall sched r, forallb (act_ok false) sched = true -> main_state (run_sched cat_oneof_all_fail sched) = Some (TDone r) ->
    exists k, r = SResErr (XEng EOneOfNoResult k).
Proof.
  intros sched r Hs Hm. assert (HP : In cat_oneof_all_fail catalogue_clean) by in_catalogue.
  pose proof (certified_outcome_without_cancel _ sched r (in_clean_certified _ HP) Hs Hm) as H.
  unfold outcome_ok in H. replace (ref_res cat_oneof_all_fail) with (RFail [COneOf 3 0]) in H by (vm_compute; reflexivity).
  destruct r as [|v| |e|e]; try discriminate.
  - exfalso. destruct e as [c i a|ee k|k|k|]; cbn in H; try discriminate. destruct ee; discriminate.
  - destruct e as [c i a|ee k|k|k|]; cbn in H.
    + discriminate.
    + destruct ee; try discriminate; eauto.
    + discriminate.
    + discriminate.
    + discriminate.
Qed.
Print Assumptions C10_all_candidates_fail.

(* kind G: all programs, all schedules *)
From MLPE Require Import Proofs.PlainCore Proofs.OneOfAll.

(* [cands P h]: candidates of the one-of h in declared order; [all_failed P b l]: for every candidate in l some node of its
   sub-pipeline has stored a failure in the history b; [noresult h] = the stored OneOfDoesNotHaveResultError of h.
   The history is newest first: in [a ++ o :: b], b is what happened before o. *)
Theorem C10_result_is_the_first_successful_candidate :
  forall P st, reachable P st ->
    forall a b h v, st_trace st = a ++ OSetResult h v :: b ->
      is_head (b_graph (build (p_decls P) (p_inp P) (p_out P))) h = true ->
      is_switch (b_graph (build (p_decls P) (p_inp P) (p_out P))) h = false ->
      (v = noresult h /\ all_failed P b (cands P h)) \/
      (exists pre c rest, cands P h = pre ++ c :: rest /\ In (OSetResult c v) b /\ all_failed P b pre).
Proof. exact oneof_result_is_the_first_successful_candidate_all_programs. Qed.
Print Assumptions C10_result_is_the_first_successful_candidate.

(* [OSpawn t (TNDag s c)]: the launch of the sub-pipeline of candidate c (the only tasks of that name) *)
Theorem C10_candidates_are_tried_in_declared_order :
  forall P st, reachable P st ->
    forall a b t s c, st_trace st = a ++ OSpawn t (TNDag s c) :: b ->
      exists h pre rest, is_head (b_graph (build (p_decls P) (p_inp P) (p_out P))) h = true /\
                         cands P h = pre ++ c :: rest /\ all_failed P b pre.
Proof. exact oneof_candidates_are_tried_in_order_all_programs. Qed.
Print Assumptions C10_candidates_are_tried_in_declared_order.

(* [oo P tr f]: if f is a position of the one-of loop (about to try the candidates l / waiting for candidate c with rest to go),
   the declared list is pre ++ l (pre ++ c :: rest) and everything in pre has failed *)
Theorem C10_one_position_at_a_time :
  forall P st x f, reachable P st -> In x (st_tasks st) -> In f (estack (t_state x)) -> oo P (st_trace st) f.
Proof. exact oneof_position_all_programs. Qed.
Print Assumptions C10_one_position_at_a_time.

(* the conclusions are about events that do occur: a complete run of the catalogue program whose first candidate fails stores a
   result for the one-of (KOo 3 0), a one-of head that is not a switch with candidates [1; 2], and launches candidate 2 *)
Example C10_events_occur :
  let P := cat_oneof_last in
  let st := run_sched P [AQuiesce; AGate (GBody 0 0); AQuiesce; AGate (GBody 1 0); AQuiesce; AGate (GBody 2 0); AQuiesce; AGate (GBody 3 0); AQuiesce] in
  is_head (b_graph (build (p_decls P) (p_inp P) (p_out P))) (KOo 3 0) = true /\
  is_switch (b_graph (build (p_decls P) (p_inp P) (p_out P))) (KOo 3 0) = false /\
  cands P (KOo 3 0) = [KN 1; KN 2] /\
  existsb (fun o => match o with OSetResult (KOo 3 0) (VNode 2 _) => true | _ => false end) (st_trace st) = true /\
  existsb (fun o => match o with OSpawn _ (TNDag _ (KN 2)) => true | _ => false end) (st_trace st) = true /\
  existsb (fun o => match o with OSetResult (KN 1) (VExn _) => true | _ => false end) (st_trace st) = true.
Proof. vm_compute. repeat split; reflexivity. Qed.
