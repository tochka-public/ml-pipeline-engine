(* C02 -- Every run terminates: no deadlock or lost wake-up under any schedule.

   Full statement (for a program P):
     C02_statement P := forall st, reachable P st ->
         deadlocked st = false                          (never: loop idle, nothing outstanding, run pending)
      /\ aborted st = false                             (the model interpreter never gives up inside one atomic segment)
      /\ st_ready (quiesce P B st) = []                 (at most B consecutive loop steps without an external completion)
   It is FALSE for some programs (known findings D11, D12, D17: see DESIGN 3.6); it is proved here
   (a) kind E: for every program of the catalogue (about 40 concrete programs: every DAG shape of the repository's test suite,
       the witnesses of the repaired hangs D1-D4b, D22, nested / shared / failing variants, collaborator faults), for EVERY
       schedule of unbounded length including caller cancellation at any point, by certified exhaustive exploration;
   (b) kind G, all programs and schedules: a Ready task is always queued (no lost wake-up at the loop level), cancellation never
       hangs (C13), and a CancelledError ends a task in one step.
   (c) kind F, ALL plain programs (built graph without switch node and one-of head, bodies that never ask for another iteration;
       any number of nodes, any shape, retry / default settings, execution modes, any event managers and artifact store -- gated or
       not, raising or not) and ALL schedules incl. caller cancellation: no reachable state is deadlocked
       (C02_on_plain_programs_no_deadlock, proved in Proofs/PlainDeadlock.v by invariants over configuration-level reachability).
       Its two hypotheses on the library orders (the launch order is duplicate-free, lists the output and every dependency of a
       node before it; the notified successors include every consumer) are decidable (valid_orders_b) and are what the model side
       checks of every order recorded from networkx. The bound on consecutive loop steps (third conjunct) is kind E only.
   For switch / one-of / recurrent programs outside the catalogue the property is decided by the correspondence check and the
   deadlock oracle on the implementation only. *)
From MLPE Require Import Engine.Run Proofs.ReadyInv Explore.Safe Catalogue.Programs Catalogue.Certified Proofs.CertLemmas.

Definition C02_statement (P : prog) : Prop :=
  forall st, reachable P st ->
             deadlocked st = false /\ aborted st = false /\ st_ready (quiesce P quiesce_bound st) = [].

Theorem C02_holds_on_certified_programs :
  forall P, certified_full P \/ certified_term P -> C02_statement P.
Proof.
  intros P [[fuel [H _]]|[fuel H]] st Hr.
  - destruct (full_parts P true st (cert_full_reachable P fuel st H Hr)) as (A & B & _ & _ & _ & _ & C & _). auto.
  - exact (cert_term_reachable P fuel st H Hr).
Qed.
Print Assumptions C02_holds_on_certified_programs.

Theorem C02_catalogue : forall P, In P catalogue_clean \/ In P catalogue_faulty -> C02_statement P.
Proof.
  intros P [H|H]; apply C02_holds_on_certified_programs.
  - left. pose proof catalogue_clean_certified as F. rewrite Forall_forall in F. apply F. exact H.
  - right. pose proof catalogue_faulty_certified as F. rewrite Forall_forall in F. apply F. exact H.
Qed.
Print Assumptions C02_catalogue.

(* all programs: a task that is Ready is in the ready queue, hence a state with a runnable task is never "idle" *)
Theorem C02_no_lost_wakeup_at_loop_level_partial :
  forall P st t x k sg, reachable P st -> find_task t (st_tasks st) = Some x -> t_state x = TReady k sg -> deadlocked st = false.
Proof. exact ready_task_not_deadlocked. Qed.
Print Assumptions C02_no_lost_wakeup_at_loop_level_partial.

(* the catalogue is not trivial: how many programs it holds *)
Example C02_catalogue_nontrivial :
  length catalogue_clean >= 33 /\ length catalogue_faulty = 2.
Proof. split; [cbn; lia|reflexivity]. Qed.


(* kind F: all plain programs, all schedules *)
From MLPE Require Import Proofs.PlainLive Proofs.PlainDeadlock.

Theorem C02_on_plain_programs_no_deadlock :
  forall P, plain_prog P -> valid_orders P -> forall st, reachable P st -> deadlocked st = false.
Proof. exact plain_programs_never_deadlock. Qed.
Print Assumptions C02_on_plain_programs_no_deadlock.

(* the hypotheses are met: the rhombus with gated event managers, a retry node with a default, and a five-node DAG with a
   gated write-once store and a failing node *)
Example C02_plain_hypotheses_hold :
  (plain_prog cat_rhombus_gated_events /\ valid_orders cat_rhombus_gated_events) /\
  (plain_prog cat_retry_exhausted_default /\ valid_orders cat_retry_exhausted_default) /\
  (plain_prog cat_rhombus_fail /\ valid_orders cat_rhombus_fail).
Proof.
  split; [|split]; (split; [eapply dsl_plain_prog; [reflexivity|vm_compute; reflexivity|vm_compute; reflexivity|vm_compute; reflexivity]
                           |apply valid_orders_b_sound; vm_compute; reflexivity]).
Qed.
