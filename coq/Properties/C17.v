(* C17 -- Execution mode is transparent; a missing pool fails fast.

   (1) Fail fast, kind G (EVERY program, EVERY schedule): if a mode in use needs a pool that is not registered or has been shut
       down (pool_blocked: what _is_executor_needed computes vs. the registry state), no task is ever created and nothing
       about any node is ever observed: no body, no get_default, no node event, no save, no timer -- only the two pipeline
       events. Kind E for the outcome (two catalogue programs, every schedule): the run ends with the pool error result
       (RuntimeError of the registry) or, if the caller cancels, CancelledError; never a hang, never a partial run.
   (2) Transparency, kind E: the reference semantics does not look at execution modes; three mode assignments of the same
       rhombus (all coroutines / immediate+thread+process+inline / inline+inline+thread+process) are in the catalogue and end, under
       EVERY schedule, with one and the same value. In general (all programs) transparency is not proved: it is decided by
       running the real engine on generated programs under random mode assignments on the virtual loop against the reference, and
       on a sample with real thread and fork-process pools on a real event loop.
   Not exhibited by the model: real pool timing, pickling of process-pool arguments, worker saturation. *)
From MLPE Require Import Engine.Run Spec.Dataflow Proofs.ModesProofs Explore.StateEq Explore.Erase Explore.Safe Catalogue.Programs Catalogue.Certified Proofs.CertLemmas.

Theorem C17_missing_pool_nothing_runs :
  forall P, pool_blocked P = true ->
    forall st, reachable P st -> st_next st = 1 /\ forallb node_free (st_trace st) = true.
Proof. exact blocked_run_is_calm. Qed.
Print Assumptions C17_missing_pool_nothing_runs.

Theorem C17_missing_pool_outcome :
  forall P, In P catalogue_nopool ->
    pool_blocked P = true /\
    forall st r, reachable P st -> deadlocked st = false /\
      (main_state st = Some (TDone r) -> (exists k, r = SResErr (XEng EPoolNotReady k)) \/ r = SThrow XCancelled).
Proof.
  intros P HP. split.
  - unfold catalogue_nopool in HP. cbn [In] in HP. repeat (destruct HP as [<-|HP]; [vm_compute; reflexivity|]). contradiction.
  - intros st r Hr. pose proof catalogue_nopool_certified as F. rewrite Forall_forall in F. destruct (F P HP) as [fuel Hc].
    pose proof (certify_sound P true fuel _ Hc st (reachable_by_true P st Hr)) as H.
    unfold safe_nopool in H. change (safe_live (erase st)) with (safe_live st) in H. change (main_state (erase st)) with (main_state st) in H.
    apply andb_true_iff in H. destruct H as [H _]. apply andb_true_iff in H. destruct H as [Hl Ho].
    unfold safe_live in Hl. apply andb_true_iff in Hl. destruct Hl as [Hd _]. apply negb_true_iff in Hd. split; [exact Hd|].
    intros Hm. rewrite Hm in Ho. destruct r as [|v| |e|e]; try discriminate.
    + destruct e; try discriminate. right. reflexivity.
    + destruct e as [c i a|ee k|k|k|]; try discriminate. destruct ee; try discriminate. left. eauto.
Qed.
Print Assumptions C17_missing_pool_outcome.

(* the same declarations under three assignments of execution modes: one value, every schedule *)
Theorem C17_mode_transparent_on_the_rhombus :
  forall P, In P [cat_rhombus; cat_rhombus_modes_a; cat_rhombus_modes_b] ->
    forall sched r, forallb (act_ok false) sched = true -> main_state (run_sched P sched) = Some (TDone r) ->
      r = SVal (VNode 3 [(1, VNode 1 [(1, VNode 0 [(3, VInt 1)])]); (2, VNode 2 [(1, VNode 0 [(3, VInt 1)])])]).
Proof.
  intros P HP sched r Hs Hm.
  assert (HC : In P catalogue_clean) by (cbn [In] in HP; destruct HP as [<-|[<-|[<-|[]]]]; in_catalogue).
  pose proof (certified_outcome_without_cancel P sched r (in_clean_certified P HC) Hs Hm) as H.
  assert (E : ref_res P = ROk (VNode 3 [(1, VNode 1 [(1, VNode 0 [(3, VInt 1)])]); (2, VNode 2 [(1, VNode 0 [(3, VInt 1)])])])).
  { cbn [In] in HP. destruct HP as [<-|[<-|[<-|[]]]]; vm_compute; reflexivity. }
  unfold outcome_ok in H. rewrite E in H. destruct r as [|v| |e|e]; try discriminate.
  - apply value_seqb_sound in H. subst. reflexivity.
  - destruct e; discriminate.
Qed.
Print Assumptions C17_mode_transparent_on_the_rhombus.
