(* C13 -- Nothing is left running after a run ends or is cancelled.
   Model: Engine/Manager.v (every coroutine of dag/manager.py, chart.py, events.py as frames) under Engine/Run.v
   (arbitrary schedules of loop steps, completions of executor work / timers / callbacks / saves, and caller
   cancellation). All theorems quantify over EVERY program (all constructs, any bodies, any collaborator fault
   plan, any order oracles) and EVERY schedule of unbounded length; nothing is bounded or sampled. *)
From MLPE Require Import Engine.Run Proofs.StackInv Proofs.CancelProofs Proofs.ReadyInv Proofs.CancelSurface.

(* (1) when PipelineChart.run has returned or raised -- normally, with an error, or because the caller cancelled it at any
       point -- every helper task of the engine is finished or has a CancelledError pending (run()'s `finally`) *)
Theorem C13_all_helpers_cancelled :
  forall P st, reachable P st -> main_done st = true -> all_cancelled st.
Proof. exact after_done_all_cancelled. Qed.
Print Assumptions C13_all_helpers_cancelled.

(* (2) and from that moment on, whatever the event loop does (further steps, late completions of executor work, timers,
       callbacks, saves, further cancel calls), no node body, get_default, event callback, artifact save or timer is started
       and no task is created: the visible part of the trace and the task counter never change again *)
Theorem C13_nothing_starts_after_run :
  forall P st sched, reachable P st -> main_done st = true ->
    let st' := fold_left (fun s a => apply_action P a s) sched st in
    vis st' = vis st /\ st_next st' = st_next st /\ main_done st' = true.
Proof.
  intros P st sched Hr Hd st'. destruct (silent_after_run P sched st Hr Hd) as [[Hv Hn] Hd']. auto.
Qed.
Print Assumptions C13_nothing_starts_after_run.

(* (3) a CancelledError delivered to ANY task with a call-discipline-respecting stack (all reachable stacks are, by
       reachable_stacks_ok) ends that task within the very same loop step, silently: no suspension, nothing visible, no new
       task. This is why every cancelled helper finishes in one step each, without further action by the caller. *)
Theorem C13_cancelled_task_finishes_in_one_step :
  forall P fuel t k st, chainb k = true -> all_cancelled st ->
    let st' := exec P fuel t k (SThrow XCancelled) st in
    all_cancelled st' /\ vis st' = vis st /\ st_next st' = st_next st /\ is_done_t t st'.
Proof.
  intros P fuel t k st Hc Ha st'. destruct (unwind_exec P fuel t k st Hc Ha) as [A [[B1 B2] C]]. auto.
Qed.
Print Assumptions C13_cancelled_task_finishes_in_one_step.

Theorem C13_reachable_stacks_respect_call_discipline :
  forall P st, reachable P st -> stacks_ok st.
Proof. exact reachable_stacks_ok. Qed.
Print Assumptions C13_reachable_stacks_respect_call_discipline.

(* (4) a task that is Ready is in the ready queue (it will get its step): cancelled helpers are never lost *)
Theorem C13_ready_tasks_are_queued :
  forall P st, reachable P st -> rcx None st.
Proof. exact reachable_ready_consistent. Qed.
Print Assumptions C13_ready_tasks_are_queued.

(* (5) cancelling a run that has not ended never hangs and surfaces to the canceller as CancelledError only: whatever the
       schedule does afterwards, the chart task is runnable with the CancelledError pending (and then the loop is not idle) or
       has ended with CancelledError. The second disjunct of the Done case is the model interpreter giving up (fuel), which the
       correspondence check reports and which never occurs on a compared case. *)
Theorem C13_cancel_surfaces_as_CancelledError :
  forall P st sched, reachable P st -> main_done st = false ->
    let st' := fold_left (fun s a => apply_action P a s) sched (cancel_task main_tid st) in
    match main_state st' with
    | Some (TReady _ sg) => sg = SThrow XCancelled /\ deadlocked st' = false
    | Some (TDone r) => r = SThrow XCancelled \/ exists k, r = SThrow (XEng EOutOfFuel k)
    | _ => False
    end.
Proof. exact cancel_surfaces_as_cancelled. Qed.
Print Assumptions C13_cancel_surfaces_as_CancelledError.

(* Non-vacuity: a concrete program (rhombus of gated nodes) reaches a state in which run has ended after a caller
   cancellation in the middle of the run, with helper tasks that were pending at that moment. *)
Definition c13_decls : decls :=
  [ {| ns_params := []; ns_mode := MGated; ns_attempts := None; ns_delay := None; ns_excs := None; ns_default := false |};
    {| ns_params := [(1, MIn 0)]; ns_mode := MGated; ns_attempts := None; ns_delay := None; ns_excs := None; ns_default := false |};
    {| ns_params := [(1, MIn 0)]; ns_mode := MGated; ns_attempts := None; ns_delay := None; ns_excs := None; ns_default := false |};
    {| ns_params := [(1, MIn 1); (2, MIn 2)]; ns_mode := MGated; ns_attempts := None; ns_delay := None; ns_excs := None; ns_default := false |} ].
Definition c13_prog : prog := mk_prog c13_decls [] [] 1 false [] StNone false [] [] [] true true.
Definition c13_sched : list action := [AQuiesce; AGate (GBody 0 0); AQuiesce; ACancel; AQuiesce].
Example C13_premises_satisfiable :
  let st := run_sched c13_prog c13_sched in
  main_done st = true /\ main_state st = Some (TDone (SThrow XCancelled)) /\ 4 <= length (st_tasks st)
  /\ count_occ_b visible (st_trace st) = 8.
Proof. vm_compute. repeat split; lia. Qed.
