(* C19 -- A configured artifact store receives each node's final value exactly once.

   Kind E, for the programs of the clean catalogue (those with a store configured are the interesting ones: a rhombus, a
   switch whose selected case is shared with another consumer, a one-of with a failing candidate -- with a write-once, gated
   store) and every schedule incl. cancellation: no node id is saved twice, what is handed to the store is never a Recurrent
   marker or a contained failure, and a write-once store never makes the run fail (the outcome is the reference's).
   FALSE in general: known finding D15d (a node inside a recurrent subgraph is saved once per iteration) and D9s.
   Kind G (ALL programs, all schedules): what is handed to the store is never a Recurrent marker or a contained failure
   (C19_no_marker_or_failure_is_saved), and it is the value that was stored as the node's result just before
   (C19_saved_value_is_the_stored_result).  That consumers receive that stored result is C03 (kind F on plain programs), and
   otherwise decided on the implementation by the oracle. *)
From MLPE Require Import Engine.Run Explore.Safe Catalogue.Programs Proofs.CertLemmas.

Definition C19_statement (P : prog) : Prop :=
  forall st, reachable P st ->
    safe_saves st = true /\ (forall r, main_state st = Some (TDone r) -> outcome_ok P true r = true).

Theorem C19_catalogue : forall P, In P catalogue_clean -> C19_statement P.
Proof.
  intros P HP st Hr. destruct (certified_facts P st (in_clean_certified P HP) Hr) as (_ & _ & Ho & _ & _ & Hs & _).
  split; [exact Hs|]. intros r Hm. unfold safe_outcome in Ho. rewrite Hm in Ho. exact Ho.
Qed.
Print Assumptions C19_catalogue.

Theorem C19_saved_at_most_once :
  forall P, In P catalogue_clean -> forall st n, reachable P st -> ctr_get (CSave n) st <= 1.
Proof.
  intros P HP st n Hr. destruct (C19_catalogue P HP st Hr) as [H _]. unfold safe_saves in H. apply andb_true_iff in H. destruct H as [H _].
  unfold ctr_get. destruct (alookup ctr_eqb (CSave n) (st_ctrs st)) as [k|] eqn:E; [|lia].
  destruct (alookup_found _ _ _ _ E) as [c [Hin He]]. rewrite forallb_forall in H. specialize (H _ Hin). cbn in H.
  destruct c; try discriminate He. apply Nat.leb_le. exact H.
Qed.
Print Assumptions C19_saved_at_most_once.

(* kind G: ALL programs (every construct, any bodies, any retry settings, any event managers, any store, gated or not, any
   collaborator faults), ALL schedules incl. cancellation *)
From MLPE Require Import Proofs.PlainWorld Proofs.PlainLive Proofs.SavesAll.

Theorem C19_no_marker_or_failure_is_saved :
  forall P st n v, reachable P st -> In (OSave n v) (st_trace st) -> is_rec v = false /\ is_exn v = false.
Proof. intros P st n v Hr. exact (no_marker_or_failure_is_saved_all_programs P st Hr n v). Qed.
Print Assumptions C19_no_marker_or_failure_is_saved.

(* the history is newest first: in [a ++ OSave n v :: b], b is what happened before the save *)
Theorem C19_saved_value_is_the_stored_result :
  forall P st, reachable P st -> forall a b n v, st_trace st = a ++ OSave n v :: b -> In (OSetResult n v) b.
Proof. exact saved_value_was_stored_all_programs. Qed.
Print Assumptions C19_saved_value_is_the_stored_result.

(* the hypothesis is met by catalogue programs, and saves do happen *)
Example C19_plain_not_vacuous :
  plain_prog cat_rhombus_store /\
  existsb (fun o => match o with OSave _ _ => true | _ => false end) (st_trace (auto_run cat_rhombus_store 40 init_state)) = true /\
  reachable cat_rhombus_store (auto_run cat_rhombus_store 40 init_state).
Proof.
  split; [|split; [vm_compute; reflexivity|apply auto_run_reachable, reach_init]].
  eapply dsl_plain_prog; [reflexivity|vm_compute; reflexivity|vm_compute; reflexivity|vm_compute; reflexivity].
Qed.

(* kind F, the main clauses: ALL plain programs, ALL schedules, at every point while manager.run is pending:
   a node is handed to the store at most once; what is handed over is the node's stored result (which is final, and is what its
   consumers receive through _get_node_kwargs: see C03_on_plain_programs_arguments_are_the_final_values_of_the_inputs); and, when a
   store is configured, every node that has a result has been handed to it exactly once (the call happens in the same loop step
   in which the result is stored). Together with the theorem above: a write-once store can never make a plain pipeline fail. *)
From MLPE Require Import Proofs.PlainCore Proofs.PlainSaves.

Theorem C19_on_plain_programs_each_result_is_saved_exactly_once :
  forall P, plain_prog P -> NoDup (p_order P (maind P)) ->
    forall st, reachable P st -> over st = false -> main_done st = false ->
      (forall m, count_saves m (st_trace st) <= 1) /\
      (forall n v, In (OSave n v) (st_trace st) -> exists_result n (st_store st) = true /\ get_result n true (st_store st) = v) /\
      (p_store P <> StNone -> forall m, exists_result m (st_store st) = true -> count_saves m (st_trace st) = 1).
Proof. exact plain_saves. Qed.
Print Assumptions C19_on_plain_programs_each_result_is_saved_exactly_once.

Example C19_plain_saves_not_vacuous :
  let st := auto_run cat_rhombus_store 7 init_state in
  over st = false /\ main_done st = false /\ count_saves (KN 1) (st_trace st) = 1 /\ count_saves (KN 2) (st_trace st) = 1.
Proof. vm_compute. repeat split; reflexivity. Qed.
