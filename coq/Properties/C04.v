(* C04 -- Each node executes at most once per run and iteration, whoever requests it.

   Kind E (clean catalogue, every schedule): the number of body invocations of node i never exceeds the number of invocations
   in the reference evaluation, which executes a node once per (re-)iteration it belongs to, plus its retry attempts.
   Kind G (EVERY program, EVERY schedule): an execution of a node begins (ghost event OProcessed, emitted where _execute_node marks
   the node processed, in the same atomic segment as the test of that mark) only if no execution of it has begun since its last
   invalidation; so any two executions of one node are separated by an invalidation of the earlier one (OHide: a recurrent
   re-iteration hiding the subgraph, or the forced default after exhaustion), whoever requests the node and however the requests
   interleave; and the processed mark in the storage is exactly that fact. (The seeded change C04-1 -- an await between the test and
   the mark -- is precisely what this theorem's proof would not survive in the model; on the implementation it is caught by the
   oracle and the correspondence.) Also kind G: every body invocation belongs to an execution that has begun -- in the history it is
   preceded by the marking of its node (C04_every_body_invocation_belongs_to_a_begun_execution) -- and the retry loop of an
   execution never goes beyond the configured attempts (C12_attempt_numbers_stay_within_the_configured_attempts); kind F: on plain
   programs at most one execution per node and at most `attempts` body invocations in total
   (C12_on_plain_programs_at_most_attempts_invocations). The kind-E counts are FALSE only on known findings D9, D12, D17. *)
From MLPE Require Import Engine.Run Explore.Safe Catalogue.Programs Proofs.CertLemmas Proofs.ProcessedInv.

Definition C04_statement (P : prog) : Prop :=
  forall st i, reachable P st -> ctr_get (CBody i) st <= ref_invocations P i.

Theorem C04_catalogue : forall P, In P catalogue_clean -> C04_statement P.
Proof.
  intros P HP st i Hr. destruct (certified_facts P st (in_clean_certified P HP) Hr) as (_ & _ & _ & H & _).
  apply safe_counts_bound. exact H.
Qed.
Print Assumptions C04_catalogue.

Theorem C04_an_execution_begins_only_when_unmarked :
  forall P st, reachable P st ->
    (forall n, exists_processed n (st_store st) = last_proc n (st_trace st)) /\ wf_proc (st_trace st).
Proof. exact reachable_proc_ok. Qed.
Print Assumptions C04_an_execution_begins_only_when_unmarked.

Theorem C04_two_executions_are_separated_by_an_invalidation :
  forall P st n l1 l2 l3, reachable P st -> st_trace st = l1 ++ OProcessed n :: l2 ++ OProcessed n :: l3 -> In (OHide n) l2.
Proof.
  intros P st n l1 l2 l3 Hr E. destruct (reachable_proc_ok P st Hr) as [_ H]. rewrite E in H.
  exact (two_executions_are_separated n l1 l2 l3 H).
Qed.
Print Assumptions C04_two_executions_are_separated_by_an_invalidation.

(* kind G: in the history (newest first), a body invocation of node i is preceded by the marking of a node with that index *)
From MLPE Require Import Proofs.ProcAll.
Theorem C04_every_body_invocation_belongs_to_a_begun_execution :
  forall P st, reachable P st ->
    forall a b i k kw, st_trace st = a ++ OStart i k kw :: b -> exists n, real_index n = i /\ In (OProcessed n) b.
Proof. exact every_body_invocation_belongs_to_a_begun_execution. Qed.
Print Assumptions C04_every_body_invocation_belongs_to_a_begun_execution.

(* a node shared by the main DAG, a switch branch and the output is executed exactly as often as the reference does: once *)
Example C04_shared_node_once :
  In cat_switch_shared_case catalogue_clean /\ ref_invocations cat_switch_shared_case 2 = 1.
Proof. split; [in_catalogue|vm_compute; reflexivity]. Qed.

(* kind F: ALL plain programs (no switch, no one-of, no body asking for another iteration; any size, shape, settings and
   collaborators), ALL schedules: a node is executed at most once in a run -- nothing is ever invalidated in a plain run, so by
   the theorem above two executions of one node cannot both occur. *)
From MLPE Require Import Proofs.PlainLive.

Theorem C04_on_plain_programs_at_most_one_execution_per_node :
  forall P, plain_prog P ->
    forall st n l1 l2 l3, reachable P st -> st_trace st <> l1 ++ OProcessed n :: l2 ++ OProcessed n :: l3.
Proof.
  intros P HP st n l1 l2 l3 Hr E.
  pose proof (C04_two_executions_are_separated_by_an_invalidation P st n l1 l2 l3 Hr E) as Hh.
  assert (Hin : In (OHide n) (st_trace st)) by (rewrite E; apply in_or_app; right; right; apply in_or_app; left; exact Hh).
  pose proof (plain_prog_values_in_flight P st _ HP Hr Hin) as H. discriminate H.
Qed.
Print Assumptions C04_on_plain_programs_at_most_one_execution_per_node.
