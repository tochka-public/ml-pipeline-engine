(* C12 -- Retry and default policy is applied exactly as configured.
   Model: Pure/Retry.v ([retry_decide] is the very function the engine model's frame FRetryAfterBody calls;
   [retry_run] is the `while True` loop of __execute_node). Quantified over every policy
   (attempts, delay, exceptions, use_default) with attempts >= 1 after defaulting, and every sequence of
   per-attempt outcomes o : nat -> outcome. *)
From MLPE Require Import Pure.Retry Spec.Dataflow Proofs.RetryProofs Proofs.TablesOk.

(* (1) the loop equals its closed form: body at attempts 1..j, j = first attempt that returns or raises a
       non-retryable exception, or `attempts`; one failure report and one sleep(delay) between consecutive
       attempts and nowhere else; result = value | default | last exception; it needs no more fuel than `attempts` *)
Theorem C12_closed_form :
  forall (nd : nspec) (o : nat -> outcome),
    (1 <= pol_attempts nd)%Z ->
    let a := Z.to_nat (pol_attempts nd) in
    let j := stop_at (a - 1) nd o 1 in
    retry_run a nd o 1 = (closed_log nd o j, Some (final_result nd (o j) j)).
Proof. exact retry_closed_form. Qed.
Print Assumptions C12_closed_form.

(* (2) the body is invoked exactly at attempts 1..j with 1 <= j <= attempts, every attempt before j raised an
       exception matching `exceptions`, and exactly j-1 sleeps of `delay` happen *)
Theorem C12_invocations :
  forall (nd : nspec) (o : nat -> outcome),
    (1 <= pol_attempts nd)%Z ->
    let j := stop_at (Z.to_nat (pol_attempts nd) - 1) nd o 1 in
    bodies (closed_log nd o j) = seq 1 j
    /\ sleeps (closed_log nd o j) = repeat (pol_delay nd) (j - 1)
    /\ 1 <= j /\ (Z.of_nat j <= pol_attempts nd)%Z
    /\ (forall a, 1 <= a < j -> retryable nd (o a) = true)
    /\ ((Z.of_nat j < pol_attempts nd)%Z -> retryable nd (o j) = false).
Proof.
  intros nd o H j. pose proof (stop_bounds nd o H) as [H1 H2]. fold j in H1, H2.
  repeat split; try assumption.
  - apply bodies_closed. exact H1.
  - apply sleeps_closed.
  - intros a Ha. apply (stop_at_before nd o (Z.to_nat (pol_attempts nd) - 1) 1). exact Ha.
  - intros Hlt. apply stop_at_stops. fold j. lia.
Qed.
Print Assumptions C12_invocations.

(* (3) classification of the result: a BaseException outside Exception that does not match `exceptions` is neither
       retried nor defaulted; an Exception is defaulted iff use_default; a value is returned as is *)
Theorem C12_result :
  forall (nd : nspec) (oc : outcome) (att : nat),
    match oc with
    | OVal v => final_result nd oc att = RRVal v
    | ORaise c =>
      (exc_matches c (pol_excs nd) = false -> issub c EExc = false -> final_result nd oc att = RRRaise c att)
      /\ (exc_matches c (pol_excs nd) = true \/ issub c EExc = true ->
          final_result nd oc att = if ns_default nd then RRDefault else RRRaise c att)
    end.
Proof.
  intros nd [v|c] att; [reflexivity|]. unfold final_result. split.
  - intros -> ->. reflexivity.
  - intros [-> | ->]; rewrite ?orb_true_r; reflexivity.
Qed.
Print Assumptions C12_result.

(* (4) the engine's loop computes exactly what the reference semantics prescribes for a node execution
       (result, number of invocations, use of the default) *)
Theorem C12_refines_reference :
  forall (ds : decls) (body : nat -> kwargs -> nat -> outcome) (i : nat) (kw : kwargs),
    let nd := spec_of ds i in
    let o := fun a => body i kw (Nat.pred a) in
    (1 <= pol_attempts nd)%Z ->
    let a := Z.to_nat (pol_attempts nd) in
    let j := stop_at (a - 1) nd o 1 in
    retry_run a nd o 1 = (closed_log nd o j, Some (final_result nd (o j) j))
    /\ retry_eval ds body a i kw 0 =
       (fst (res_of i kw (final_result nd (o j) j)), j, snd (res_of i kw (final_result nd (o j) j))).
Proof. intros. apply engine_retry_refines_reference. assumption. Qed.
Print Assumptions C12_refines_reference.

(* (5) the defaults of NodeRetryPolicy used by the model are the ones in /repo's node/retrying.py (regenerated) *)
Theorem C12_defaults_from_source :
  pol_attempts (nspec_with None None None) = gen.Tables.retry_default_attempts
  /\ pol_delay (nspec_with None None None) = gen.Tables.retry_default_delay
  /\ pol_excs (nspec_with None None None) = gen.Tables.retry_default_exceptions.
Proof. repeat split; reflexivity. Qed.
Print Assumptions C12_defaults_from_source.

(* outside the domain: negative attempts never terminate (recorded, not claimed) *)
Theorem C12_negative_attempts_diverge :
  forall nd fuel, (pol_attempts nd < 0)%Z -> exc_matches EA (pol_excs nd) = true ->
                  snd (retry_run fuel nd (fun _ => ORaise EA) 1) = None.
Proof. exact negative_attempts_diverge. Qed.
Print Assumptions C12_negative_attempts_diverge.

(* non-vacuity: a policy with 3 attempts, failing twice with a retryable class, then succeeding *)
Example C12_example :
  let nd := {| ns_params := []; ns_mode := MGated; ns_attempts := Some 3%Z; ns_delay := Some 3;
               ns_excs := Some [EA]; ns_default := false |} in
  let o := fun a => if Nat.ltb a 3 then ORaise EB else OVal (VInt 7) in
  retry_run 3 nd o 1 =
  ([RBody 1; REmitFail 1 EB; RSleep 3; RBody 2; REmitFail 2 EB; RSleep 3; RBody 3], Some (RRVal (VInt 7))).
Proof. reflexivity. Qed.

(* kind F: all plain programs, all schedules *)
From MLPE Require Import Engine.Run Proofs.PlainWorld Proofs.PlainLive Proofs.PlainCore Proofs.PlainValues.

(* (6) inside a pipeline: for EVERY plain program and EVERY schedule, the result stored for a node is what the retry loop of (1)-(3)
       yields for the node's body applied to the keyword arguments assembled from the final results of its inputs: the value the
       loop returns, or get_default of those arguments when the loop ends in the default; a node whose loop ends in an exception has
       no stored result.  (Kind F; the frames FRetry* of the engine model are related to [retry_run] by Proofs/PlainValues.v.) *)
Theorem C12_on_plain_programs_results_follow_the_retry_policy :
  forall P, plain_prog P -> NoDup (p_order P (maind P)) ->
  forall st m, reachable P st -> over st = false -> main_done st = false -> exists_result m (st_store st) = true ->
    exists kw, node_kwargs P st m = Some kw /\
      forall fuel r, snd (retry_run fuel (nspec_of P (real_index m)) (fun a => p_body P (real_index m) kw (Nat.pred a)) 1) = Some r ->
        (r = RRVal (get_result m true (st_store st))) \/
        (r = RRDefault /\ get_result m true (st_store st) = VDef (real_index m) kw).
Proof.
  intros P HP Hnd st m Hr Ho Hm Hres.
  destruct (plain_results_are_prescribed P HP Hnd st m Hr (conj Ho Hm) Hres) as [[kw [Hk Hok]] _].
  exists kw. split; [exact Hk|]. intros fuel r Hrun. pose proof (retry_run_rr _ _ _ _ _ Hrun) as Hrr.
  destruct Hok as [H|[H E]].
  - left. exact (rr_functional _ _ _ _ Hrr _ H).
  - right. split; [exact (rr_functional _ _ _ _ Hrr _ H)|exact E].
Qed.
Print Assumptions C12_on_plain_programs_results_follow_the_retry_policy.


(* kind G: ALL programs, all schedules *)
From MLPE Require Import Proofs.RetryAll.

(* (7) inside a pipeline, whatever the program: the retry loop of every task is at an attempt number between 1 and `attempts`
       ([retry_at] reads (node, attempt) off a frame of the loop; policies with attempts >= 1 after defaulting) *)
Theorem C12_attempt_numbers_stay_within_the_configured_attempts :
  forall P, (forall i, (1 <= pol_attempts (nspec_of P i))%Z) ->
  forall st x f i a, reachable P st -> In x (st_tasks st) -> In f (estack (t_state x)) -> retry_at f = Some (i, a) ->
    1 <= a /\ (Z.of_nat a <= pol_attempts (nspec_of P i))%Z.
Proof. exact attempt_numbers_are_bounded_all_programs. Qed.
Print Assumptions C12_attempt_numbers_stay_within_the_configured_attempts.

(* (8) kind F: for EVERY plain program and EVERY schedule, while manager.run is pending, the body of a node has been invoked at most
       `attempts` times in total ([starts i] counts the body invocations of node i in the history; the order contains only real
       nodes: a decidable side condition, true of every plain declaration set) *)
From MLPE Require Import Proofs.PlainCounts.

Theorem C12_on_plain_programs_at_most_attempts_invocations :
  forall P, plain_prog P -> NoDup (p_order P (maind P)) ->
  (forall i, (1 <= pol_attempts (nspec_of P i))%Z) ->
  (forall n, In n (p_order P (maind P)) -> n = KN (real_index n)) ->
  forall st, reachable P st -> over st = false -> main_done st = false ->
    forall i, starts i (st_trace st) <= Z.to_nat (pol_attempts (nspec_of P i)).
Proof. exact plain_bodies_are_invoked_at_most_attempts_times. Qed.
Print Assumptions C12_on_plain_programs_at_most_attempts_invocations.

(* (9) kind G: whatever the program and the schedule, get_default is called -- after exhausted attempts, after a non-retryable
       exception, or forced by an exhausted recurrent subgraph -- only for a node declared with use_default=True *)
From MLPE Require Import Proofs.DefaultAll.
Theorem C12_get_default_only_for_nodes_with_a_default :
  forall P st, reachable P st -> forall i kw, In (ODefault i kw) (st_trace st) -> ns_default (nspec_of P i) = true.
Proof. exact get_default_only_for_nodes_with_a_default_all_programs. Qed.
Print Assumptions C12_get_default_only_for_nodes_with_a_default.
