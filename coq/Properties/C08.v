(* C08 -- Overlapping runs of one chart do not interfere.

   Model: Engine/Multi.v -- k runs of one chart on one loop are the free interleaving of k single-run machines over the
   same immutable program (the repaired engine keeps every piece of run-time state in the per-run manager).
   Theorems, for EVERY program, every number of runs and every interleaving (multi-schedule) of unbounded length:
   (1) run #j in the crowd is exactly the single run of a fresh chart under the schedule induced on it;
   (2) two interleavings that induce the same schedule on run #j (e.g. they differ in another run failing, being cancelled,
       being faster or slower) leave run #j in the same state: same outcome, same stored results, same trace;
   (3) hence everything proved for single runs (C13, C02/C01/... on the catalogue) holds for each overlapping run.
   What the model assumes -- that the real engine shares nothing mutable between runs (graph attributes, node map, node
   classes, the caller's input dict; the pool registries are process-wide and only hold the executors) -- is NOT a theorem: it is
   examined on every run by the correspondence check with 2-3 overlapping chart.run tasks on one virtual loop (each compared
   with the single-run model under its induced schedule and with the reference) and by deep snapshots. *)
From MLPE Require Import Engine.Multi Proofs.MultiProofs Explore.Erase Explore.Safe Catalogue.Programs Proofs.CertLemmas.

Theorem C08_projection :
  forall P k sched j, j < k -> nth j (mrun P k sched) (init_state) = run_sched P (induced j sched).
Proof. exact run_projection. Qed.
Print Assumptions C08_projection.

Theorem C08_non_interference :
  forall P k s1 s2 j, j < k -> induced j s1 = induced j s2 ->
    nth j (mrun P k s1) (init_state) = nth j (mrun P k s2) (init_state).
Proof. intros P k s1 s2 j Hj E. rewrite !run_projection by exact Hj. rewrite E. reflexivity. Qed.
Print Assumptions C08_non_interference.

(* for catalogue programs: each overlapping run that is not itself cancelled ends with the reference's outcome, whatever the
   other runs do *)
Theorem C08_each_run_gets_its_solo_outcome :
  forall P, In P catalogue_clean ->
    forall k sched j r, j < k -> forallb (act_ok false) (induced j sched) = true ->
      main_state (nth j (mrun P k sched) (init_state)) = Some (TDone r) -> outcome_ok P false r = true.
Proof.
  intros P HP k sched j r Hj Hs Hm. rewrite run_projection in Hm by exact Hj.
  exact (certified_outcome_without_cancel P _ r (in_clean_certified P HP) Hs Hm).
Qed.
Print Assumptions C08_each_run_gets_its_solo_outcome.

Example C08_premises_satisfiable :
  (* two overlapping runs of the rhombus; run 1 is cancelled in the middle, run 0 finishes with its value *)
  let sched := [(0, AQuiesce); (1, AQuiesce); (0, AGate (GBody 0 0)); (1, AGate (GBody 0 0)); (0, AQuiesce); (1, ACancel); (1, AQuiesce);
                (0, AGate (GBody 1 0)); (0, AGate (GBody 2 0)); (0, AQuiesce); (0, AGate (GBody 3 0)); (0, AQuiesce)] in
  exists v, main_state (nth 0 (mrun cat_rhombus 2 sched) (init_state)) = Some (TDone (SVal v))
            /\ main_state (nth 1 (mrun cat_rhombus 2 sched) (init_state)) = Some (TDone (SThrow XCancelled)).
Proof. eexists. vm_compute. split; reflexivity. Qed.
