(* C07 -- A chart is reusable: every run behaves like the first run of a fresh chart.

   Model: a chart is the immutable [prog]; a run is a fresh [mstate] (Engine/Multi.v). A history of runs one after the other is
   the special interleaving in which run #j+1 starts when run #j has ended. Theorems, for EVERY program and history:
   each run of the history is the run of a fresh chart under its own schedule (C07_each_run_is_a_fresh_run), and the chart
   handed to run #j+1 is literally the one handed to run #0 (it is a parameter of the transition function, never a result).
   That the REAL engine writes nothing into the DAG, its graph attributes, the node classes or the caller's input_kwargs is not
   a theorem but the content of the correspondence check: histories of 2-5 runs with different inputs and failures on one
   chart, deep snapshots of graph / node map / class attributes / input dict before and after every run, every run compared
   with the single-run model and the reference (defects D6, D7, D8, D18 were found and repaired this way). *)
From MLPE Require Import Engine.Multi Proofs.MultiProofs Explore.Erase Explore.Safe Catalogue.Programs Proofs.CertLemmas.

Theorem C07_each_run_is_a_fresh_run :
  forall P k sched j, j < k -> nth j (mrun P k sched) (init_state) = run_sched P (induced j sched).
Proof. exact run_projection. Qed.
Print Assumptions C07_each_run_is_a_fresh_run.

(* the k-th run of a history on a catalogue program yields the outcome the reference gives, like the first run of a fresh chart *)
Theorem C07_history_outcomes :
  forall P, In P catalogue_clean ->
    forall k sched j r, j < k -> forallb (act_ok false) (induced j sched) = true ->
      main_state (nth j (mrun P k sched) (init_state)) = Some (TDone r) -> outcome_ok P false r = true.
Proof.
  intros P HP k sched j r Hj Hs Hm. rewrite run_projection in Hm by exact Hj.
  exact (certified_outcome_without_cancel P _ r (in_clean_certified P HP) Hs Hm).
Qed.
Print Assumptions C07_history_outcomes.
