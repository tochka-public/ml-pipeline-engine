(* C18 -- Filesystem artifact store is a write-once map keyed exactly by node id.
   Model: Pure/FsStore.v (the repaired FileSystemArtifactStore over a finite map of files); spec: the abstract
   map [astep]. Quantified over every operation sequence, arbitrary node ids (any character codes: dots, glob
   metacharacters, ids that are prefixes of one another), both formats, any number of contexts in one directory,
   values a format can or cannot serialise. *)
From MLPE Require Import Base.Util Pure.FsStore Proofs.FsStoreProofs.

(* (1) refinement: from the empty directory every operation returns what the write-once map returns, and the
       directory stays an exact image of the map (so a failed save leaves the key unsaved) *)
Theorem C18_refines_write_once_map :
  forall ops, snd (run_ops step [] ops) = snd (run_ops astep [] ops)
              /\ Rel (fst (run_ops step [] ops)) (fst (run_ops astep [] ops)).
Proof. intros ops. apply fsstore_refines_map. apply rel_empty. Qed.
Print Assumptions C18_refines_write_once_map.

(* (2) distinct keys never alias: the file name determines node id and format *)
Theorem C18_keys_do_not_alias :
  forall i f i' f', fname i f = fname i' f' -> i = i' /\ f = f'.
Proof. exact fname_inj. Qed.
Print Assumptions C18_keys_do_not_alias.

(* (3) what the abstract map guarantees, spelled out: load after save returns the saved value; a second save is
       refused and keeps the value; a key never saved does not exist; a failed save does not make the key appear *)
Theorem C18_map_laws :
  forall m ctx i f v,
    alookup path_eqb (ctx, i) m = None ->
    (forall c, dump f v = Some c ->
               snd (astep (fst (astep m (OpSave ctx i f v))) (OpLoad ctx i)) = RLoaded v
               /\ (forall f' v', astep (fst (astep m (OpSave ctx i f v))) (OpSave ctx i f' v')
                                 = (fst (astep m (OpSave ctx i f v)), RAlreadyExists)))
    /\ (dump f v = None -> astep m (OpSave ctx i f v) = (m, RDumpFailed))
    /\ snd (astep m (OpLoad ctx i)) = RDoesNotExist.
Proof.
  intros m ctx i f v Hm. repeat split.
  - simpl. rewrite Hm, H. simpl. rewrite (Proofs.AssocLemmas.alookup_aset_same path_eqb path_eqb_spec). reflexivity.
  - intros f' v'. simpl. rewrite Hm, H. simpl.
    rewrite (Proofs.AssocLemmas.alookup_aset_same path_eqb path_eqb_spec). reflexivity.
  - intros H. simpl. rewrite Hm, H. reflexivity.
  - simpl. rewrite Hm. reflexivity.
Qed.
Print Assumptions C18_map_laws.

(* non-vacuity / the D14 witnesses behave: 'x.y' then 'x'; 'a[1]' twice; a JSON save of a JSON value;
   a failed dump followed by a good save.  Character codes: x=120 y=121 a=97 [=91 1=49 ]=93 j=106 k=107 *)
Example C18_witnesses :
  snd (run_ops step [] [OpSave 0 [120;46;121] FPickle (AGood 1); OpLoad 0 [120]; OpSave 0 [120] FPickle (AGood 2);
                        OpSave 0 [97;91;49;93] FPickle (AGood 3); OpSave 0 [97;91;49;93] FPickle (AGood 4);
                        OpLoad 0 [97;91;49;93];
                        OpSave 0 [106] FJson (AGood 5); OpLoad 0 [106];
                        OpSave 0 [107] FJson (APickleOnly 6); OpLoad 0 [107]; OpSave 0 [107] FPickle (APickleOnly 6);
                        OpLoad 0 [107]; OpLoad 1 [107]])
  = [RSaved; RDoesNotExist; RSaved; RSaved; RAlreadyExists; RLoaded (AGood 3); RSaved; RLoaded (AGood 5);
     RDumpFailed; RDoesNotExist; RSaved; RLoaded (APickleOnly 6); RDoesNotExist].
Proof. vm_compute. reflexivity. Qed.
