(* C14 -- Lifecycle events form a well-formed history consistent with the run.

   Event callbacks are counted per (manager, event kind, node) in the state ([ctr_get (CEmit m ev n)]); [safe_events]
   (Explore/Safe.v) states, for non-raising managers:
     - on_pipeline_start is called at most once per manager, and as soon as ANY callback, body, save or timer has happened
       manager 0 has seen on_pipeline_start exactly once (it is the first thing that happens);
     - on_pipeline_complete is called at most once per manager and, from the moment it has been called, every helper task is
       finished or has a CancelledError pending -- by C13 (all programs) such tasks end silently, so nothing but the remaining
       on_pipeline_complete callbacks can follow it;
     - a node sees at most one on_node_start per execution and at most one on_node_complete per attempt of the reference
       semantics (no event for a node the reference never runs, none for synthetic nodes).
   Kind E: proved for every program of the clean catalogue (with 0 / 1 managers, also gated ones whose callbacks interleave with
   everything else) and EVERY schedule incl. cancellation. Kind G (all programs, all schedules): the chart task only ever holds
   chart frames, manager.run and the emission of the two pipeline events (C14_pipeline_events_come_from_the_chart_task), and
   after the run has ended nothing is emitted at all (C13_nothing_starts_after_run).
   Kind G (ALL programs -- every construct, any bodies, any artifact store, any order oracles --, any number of event managers that
   do not raise, suspending ones included, EVERY schedule incl. cancellation; theorems about the history [st_trace], below):
     - on_pipeline_start: at most once per manager, never with a node id, and BEFORE ANYTHING ELSE: every entry of the history
       other than the creation of the chart task and on_pipeline_start callbacks is preceded by the on_pipeline_start of every
       manager (C14_pipeline_start_comes_first);
     - on_pipeline_complete: at most once per manager; when run returns a PipelineResult, every manager has seen
       on_pipeline_start and on_pipeline_complete exactly once and every on_pipeline_complete carried exactly that value /
       error (C14_pipeline_events); AFTER EVERYTHING ELSE: from the first on_pipeline_complete on, the history grows by
       on_pipeline_complete callbacks only (C14_pipeline_complete_comes_last);
     - on_node_start comes first for each node: every body invocation -- first attempt or retry, in any iteration of a recurrent
       subgraph -- comes after every manager's on_node_start for that node (C14_node_start_comes_before_the_body), and so does every
       on_node_complete of the node -- the final one as well as the one reporting a failed attempt that is going to be retried
       (C14_node_complete_follows_node_start);
     - a node's value is stored -- hence can reach a consumer, the artifact store or the caller -- only after every manager
       has been told on_node_complete(node, error=None) (C14_values_are_stored_after_node_complete; "value": not a contained
       failure, which inside a one-of scope is stored as a result and was reported with on_node_complete(error); "node": not the
       synthetic head of a one-of, whose result is the winning candidate's).
   Kind F (all PLAIN programs, same managers and schedules):
     - a body is invoked only after every manager has seen the successful on_node_complete of each of its inputs
       (C14_on_plain_programs_values_follow_node_complete).
   Decided on the implementation only (oracle on the merged event / body trace, every run): the identity of the PipelineResult
   object, the exact number of on_node_complete callbacks per attempt within one execution, and body-after-input-complete on
   programs that are not plain. *)
From MLPE Require Import Engine.Run Proofs.StackInv Proofs.CancelProofs Explore.Safe Catalogue.Programs Proofs.CertLemmas.

Definition C14_statement_on_counters (P : prog) : Prop := forall st, reachable P st -> safe_events P st = true.

Theorem C14_catalogue : forall P, In P catalogue_clean -> C14_statement_on_counters P.
Proof.
  intros P HP st Hr. destruct (certified_facts P st (in_clean_certified P HP) Hr) as (_ & _ & _ & _ & _ & _ & _ & H & _). exact H.
Qed.
Print Assumptions C14_catalogue.

(* all programs, all schedules: the task running PipelineChart.run holds nothing but chart frames, manager.run and the
   emission of on_pipeline_start / on_pipeline_complete (so node events are never emitted by it, and pipeline events by nobody else
   is the call discipline: FEmit frames sit above the frames that created them) *)
Theorem C14_pipeline_events_come_from_the_chart_task :
  forall P st x k, reachable P st -> In x (st_tasks st) -> t_id x = main_tid ->
    (exists sg, t_state x = TReady k sg) \/ (exists w, t_state x = TWait w k) -> main_stack k = true.
Proof.
  intros P st x k Hr Hin Hid Hs. pose proof (reachable_stacks_ok P st Hr) as H.
  destruct (stacks_of st x H Hin) as [_ Hx]. destruct Hs as [[sg E]|[w E]]; rewrite E in Hx.
  - destruct Hx as [[_ [_ Hm]] _]. exact (Hm Hid).
  - destruct Hx as [_ [_ Hm]]. exact (Hm Hid).
Qed.
Print Assumptions C14_pipeline_events_come_from_the_chart_task.

(* the counters of one concrete run of a catalogue program with one manager: one pipeline_start, one pipeline_complete, one
   node_start and one node_complete per node *)
Example C14_premises_satisfiable :
  let st := run_sched cat_rhombus_events [AQuiesce; AGate (GBody 0 0); AQuiesce; AGate (GBody 1 0); AGate (GBody 2 0); AQuiesce; AGate (GBody 3 0); AQuiesce] in
  main_done st = true /\ ctr_get (CEmit 0 EvPipelineStart None) st = 1 /\ ctr_get (CEmit 0 EvPipelineComplete None) st = 1
  /\ ctr_get (CEmit 0 EvNodeStart (Some (KN 2))) st = 1 /\ ctr_get (CEmit 0 EvNodeComplete (Some (KN 2))) st = 1.
Proof. vm_compute. repeat split; reflexivity. Qed.


(* kind G (all programs) and kind F (all plain programs), all schedules, non-raising managers *)
From MLPE Require Import Proofs.PlainWorld Proofs.PlainLive Proofs.PlainCore Proofs.PlainDeadlock Proofs.PlainEvents Proofs.PlainNodeStart Proofs.PlainPipe Proofs.PlainQuiet Proofs.ValuesAll.

Definition managers_do_not_raise (P : prog) : Prop := forall m ev n k, p_mgr_fault P m ev n k = false.

(* [done_ev m n] = on_node_complete(n, error=None) seen by manager m; the history is newest first: in [a ++ o :: b], b is what
   happened before o *)
Theorem C14_on_plain_programs_values_follow_node_complete :
  forall P, plain_prog P -> NoDup (p_order P (maind P)) -> managers_do_not_raise P ->
  forall st, reachable P st ->
    (forall n, exists_result n (st_store st) = true -> forall m, m < p_mgrs P -> In (done_ev m n) (st_trace st)) /\
    (over st = false -> main_done st = false ->
     forall a b i k kw, st_trace st = a ++ OStart i k kw :: b ->
       exists nd, real_index nd = i /\
                  forall p, In p (preds (b_graph (build (p_decls P) (p_inp P) (p_out P))) nd) ->
                            forall m, m < p_mgrs P -> In (done_ev m p) b).
Proof.
  intros P HP Hnd Hnf st Hr. split.
  - exact (plain_values_after_announcement P HP st Hr).
  - intros Ho Hm. exact (plain_bodies_start_after_announcement P HP Hnd st Hr Ho Hm).
Qed.
Print Assumptions C14_on_plain_programs_values_follow_node_complete.

(* [start_ev m n] = on_node_start(n) seen by manager m: every body invocation of a node -- first attempt or retry -- comes after
   every manager's on_node_start for that node *)
Theorem C14_node_start_comes_before_the_body :
  forall P, managers_do_not_raise P ->
  forall st, reachable P st ->
    forall a b i k kw, st_trace st = a ++ OStart i k kw :: b ->
      exists nd, real_index nd = i /\ forall m, m < p_mgrs P -> In (start_ev m nd) b.
Proof. intros P _. exact (bodies_start_after_node_start_all_programs P). Qed.
Print Assumptions C14_node_start_comes_before_the_body.

(* the storing of a value (not a contained failure) as the result of a node (not a one-of head) comes after every manager's
   on_node_complete(node, error=None) *)
Theorem C14_values_are_stored_after_node_complete :
  forall P, managers_do_not_raise P ->
  forall st, reachable P st ->
    forall a b n v, st_trace st = a ++ OSetResult n v :: b -> is_exn v = false ->
      is_head (b_graph (build (p_decls P) (p_inp P) (p_out P))) n = false ->
      forall m, m < p_mgrs P -> In (done_ev m n) b.
Proof. intros P _. exact (values_are_stored_after_node_complete_all_programs P). Qed.
Print Assumptions C14_values_are_stored_after_node_complete.

(* [cnt (is_ps m)] / [cnt (is_pc m)] count the on_pipeline_start / on_pipeline_complete callbacks of manager m in the history *)
Theorem C14_pipeline_events :
  forall P, managers_do_not_raise P ->
  forall st, reachable P st ->
    (forall m, cnt (is_ps m) (st_trace st) <= 1) /\ (forall m, cnt (is_pc m) (st_trace st) <= 1) /\
    (forall m n e r, In (OEmit m EvPipelineStart n e r) (st_trace st) -> n = None /\ e = None /\ r = None) /\
    (forall m n e r, In (OEmit m EvPipelineComplete n e r) (st_trace st) -> n = None) /\
    (forall v, main_state st = Some (TDone (SVal v)) ->
       (forall m, m < p_mgrs P -> cnt (is_ps m) (st_trace st) = 1 /\ cnt (is_pc m) (st_trace st) = 1) /\
       (forall m n e r, In (OEmit m EvPipelineComplete n e r) (st_trace st) -> e = None /\ r = Some v)) /\
    (forall x, main_state st = Some (TDone (SResErr x)) ->
       (forall m, m < p_mgrs P -> cnt (is_ps m) (st_trace st) = 1 /\ cnt (is_pc m) (st_trace st) = 1) /\
       (forall m n e r, In (OEmit m EvPipelineComplete n e r) (st_trace st) -> e = Some x /\ r = None)).
Proof. exact pipeline_events_all_programs. Qed.
Print Assumptions C14_pipeline_events.

(* [early o]: o is the creation of the chart task or an on_pipeline_start callback *)
Theorem C14_pipeline_start_comes_first :
  forall P, managers_do_not_raise P ->
  forall st, reachable P st ->
    forall a o b, st_trace st = a ++ o :: b -> early o = false -> forall m, m < p_mgrs P -> cnt (is_ps m) b = 1.
Proof. exact pipeline_start_comes_first_all_programs. Qed.
Print Assumptions C14_pipeline_start_comes_first.

(* [is_pc_any o]: o is an on_pipeline_complete callback; a is what happened after o *)
Theorem C14_pipeline_complete_comes_last :
  forall P, managers_do_not_raise P ->
  forall st, reachable P st ->
    forall a o b, st_trace st = a ++ o :: b -> is_pc_any o = true -> forallb is_pc_any a = true.
Proof. exact pipeline_complete_comes_last_all_programs. Qed.
Print Assumptions C14_pipeline_complete_comes_last.

(* the hypotheses are met by the rhombus with a suspending event manager *)
Example C14_plain_hypotheses_hold :
  plain_prog cat_rhombus_gated_events /\ NoDup (p_order cat_rhombus_gated_events (maind cat_rhombus_gated_events)) /\
  managers_do_not_raise cat_rhombus_gated_events /\ p_mgrs cat_rhombus_gated_events = 1.
Proof.
  split; [|split; [|split]].
  - eapply dsl_plain_prog; [reflexivity|vm_compute; reflexivity|vm_compute; reflexivity|vm_compute; reflexivity].
  - apply nodupb_sound. vm_compute. reflexivity.
  - intros m ev n k. reflexivity.
  - reflexivity.
Qed.

(* every on_node_complete(n, ...) seen by any manager comes after every manager's on_node_start for a node with the same body
   (the retry loop reports failed attempts under the node's own id; the id is read off the body index) *)
From MLPE Require Import Proofs.CompleteAll.
Theorem C14_node_complete_follows_node_start :
  forall P, managers_do_not_raise P ->
  forall st, reachable P st ->
    forall a b m n e r, st_trace st = a ++ OEmit m EvNodeComplete (Some n) e r :: b ->
      exists nd, real_index nd = real_index n /\ forall m', m' < p_mgrs P -> In (start_ev m' nd) b.
Proof. intros P _. exact (node_complete_follows_node_start_all_programs P). Qed.
Print Assumptions C14_node_complete_follows_node_start.
