(* C06 -- Independent nodes of equal depth run concurrently.

   Statement on a state (safe_c06, Explore/Safe.v): at a quiescent point (ready queue empty) of a run that is still undecided
   (the chart task waits inside manager.run, no helper task has failed), let dmin be the smallest dependency depth (longest
   path from the input node) of a node that has not completed (result stored and its node task through its `finally`:
   artifact saved, successors notified); then every node of depth <= dmin has been started (its execution is marked processed:
   its node task passed the check-then-mark of _execute_node and is at its body / gate or beyond).
   I.e. once all nodes of smaller depth have completed, every node of the next depth is in flight without waiting for any
   sibling, whatever the execution modes; in particular two nodes with the same dependencies are in flight together.
   Kind E: proved for every plain-DAG program of the clean catalogue (chain, rhombus with and without (gated) event managers,
   stores, failures, three siblings, inline / thread / process / immediate mixes, None values, retries) and EVERY schedule,
   with the generation order that networkx's topological_sort produces (the default order oracle of the model; the harness
   checks on every run that the order recorded from the real run is generation-sorted). The property is FALSE for an
   arbitrary valid topological order (a chain placed before a sibling): it depends on that library choice.
   Kind F (C06_on_plain_programs, below): proved for ALL plain programs and ALL schedules, given library orders that are valid
   and sorted by depth (decidable: valid_orders_b, c06_orders_b) -- Proofs/PlainC06.v. On the real engine the statement is
   decided on generated programs by withholding every completion of depth d and checking that all depth-d bodies have started.
   Not exhibited: a real pool with fewer workers than siblings queues work items ("started" then means "submitted"). *)
From MLPE Require Import Engine.Run Spec.Fragments Explore.Safe Catalogue.Programs Proofs.CertLemmas.

Definition C06_statement (P : prog) : Prop := forall st, reachable P st -> safe_c06 P st = true.

Theorem C06_catalogue : forall P, In P catalogue_clean -> frag_Plain (p_decls P) = true -> C06_statement P.
Proof.
  intros P HP Hpl st Hr. destruct (certified_facts P st (in_clean_certified P HP) Hr) as (_ & _ & _ & _ & _ & _ & _ & _ & H). exact (H Hpl).
Qed.
Print Assumptions C06_catalogue.


(* kind F: ALL plain programs, ALL schedules *)
From MLPE Require Import Proofs.PlainLive Proofs.PlainDeadlock Proofs.PlainC06.

(* for every plain program (any size and shape, retry / default settings, execution modes, gated or raising event managers and
   stores) and every schedule, given library orders that are valid and sorted by depth (decidable; c06_orders_b): the C06
   statement holds in every reachable state. *)
Theorem C06_on_plain_programs :
  forall P, plain_prog P -> valid_orders P -> c06_orders_b P = true -> C06_statement P.
Proof. exact plain_programs_launch_by_depth. Qed.
Print Assumptions C06_on_plain_programs.

(* the hypotheses hold on catalogue programs with the networkx-exact default order oracle: three siblings, and a mix of modes *)
Example C06_plain_hypotheses_hold :
  (plain_prog cat_three_siblings /\ valid_orders cat_three_siblings /\ c06_orders_b cat_three_siblings = true) /\
  (plain_prog cat_inline_mix /\ valid_orders cat_inline_mix /\ c06_orders_b cat_inline_mix = true).
Proof.
  split; (split; [eapply dsl_plain_prog; [reflexivity|vm_compute; reflexivity|vm_compute; reflexivity|vm_compute; reflexivity]
                 |split; [apply valid_orders_b_sound; vm_compute; reflexivity|vm_compute; reflexivity]]).
Qed.
